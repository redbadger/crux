(* C12 - malformed input across the boundary fails cleanly.
   Model: coq/Wire/Malformed.v (Bridge::process_event / handle_response over the codec of C10, with
   the core underneath as a parameter), coq/Wire/Codec.v (the decoder itself). *)
From Coq Require Import String List ZArith NArith Bool Lia.
From Crux Require Import Wire.Codec Wire.CodecProofs Wire.CodecFlat Wire.Kv Wire.KvProofs Wire.Malformed Wire.MalformedProofs Wire.MalCases.
From Crux Require Import Gen.Registry_kvapp Gen.Registry_malapp Gen.Registry_zoo Gen.Registry_protocol.
Import ListNotations.

(* The property as stated: whatever bytes arrive, no step of any bridge over any app panics.  It is
   false of a model whose parameters (the app and capability code below the bridge) may panic on a
   value that DECODED correctly - crux_kv used to, until fix e5ed299 - so what is proved is: (1) the bridge and the
   decoder never panic by themselves - every panic is raised by app or capability code on a
   well-typed value; (2) if that code does not panic on well-typed values, nothing does; (3) with
   crux_kv's own continuation under the bridge nothing panics, unconditionally (C12_kv_total). *)
Definition C12_full_statement : Prop :=
  forall reg ev_fmt (app : Type) on_event on_output alloc_id (s : bstate app) (i : input),
    step reg ev_fmt app on_event on_output alloc_id s i <> BPanic.

(* (1) events: for EVERY byte string, a panic can only come from the app, on a schema-valid event *)
Theorem C12_event_panic_is_apps : forall reg ev_fmt (app : Type) on_event alloc_id (s : bstate app) b,
  process_event reg ev_fmt app on_event alloc_id s b = BPanic ->
  exists v rest, decode reg ev_fmt b = Some (v, rest) /\ has_type reg ev_fmt v /\
                 (on_event (core s) v = CPanic \/ on_event (core s) v = CFinished).
Proof. intros reg ev_fmt app on_event alloc_id s b. exact (process_event_spec reg ev_fmt app on_event alloc_id s b BPanic). Qed.

(* (2) for events, of an app that answers every schema-valid event *)
Theorem C12_total_event_partial : forall reg ev_fmt (app : Type) on_event alloc_id,
  (forall a v, has_type reg ev_fmt v -> exists a' effs, on_event a v = CDone a' effs) ->
  forall (s : bstate app) b, process_event reg ev_fmt app on_event alloc_id s b <> BPanic.
Proof.
  intros reg ev_fmt app on_event alloc_id Happ s b H. apply C12_event_panic_is_apps in H as (v & rest & _ & Ht & P).
  destruct (Happ (core s) v Ht) as (a' & effs & E). rewrite E in P. now destruct P.
Qed.

(* (1)/(2) for responses; the id need not even be registered (since fix 117dd88 an id nobody waits
   for is an error value; that case belongs to C02/C09 and is not claimed here) *)
Theorem C12_response_panic_is_apps : forall reg (app : Type) on_output alloc_id (s : bstate app) id b,
  handle_response reg app on_output alloc_id s id b = BPanic ->
  exists f v rest,
    (find_entry id (entries s) = Some (ROnce f) \/ find_entry id (entries s) = Some (RMany f)) /\
    decode reg f b = Some (v, rest) /\ has_type reg f v /\
    (on_output (core s) id v = CPanic \/
     (on_output (core s) id v = CFinished /\ find_entry id (entries s) = Some (ROnce f))).
Proof. intros reg app on_output alloc_id s id b. exact (handle_response_spec reg app on_output alloc_id s id b BPanic). Qed.

Theorem C12_total_response_partial : forall reg (app : Type) on_output alloc_id,
  (forall (s : bstate app) id f v,
      find_entry id (entries s) = Some (ROnce f) \/ find_entry id (entries s) = Some (RMany f) ->
      has_type reg f v -> on_output (core s) id v <> CPanic) ->
  (forall (s : bstate app) id f v, find_entry id (entries s) = Some (ROnce f) -> on_output (core s) id v <> CFinished) ->
  forall s id b, handle_response reg app on_output alloc_id s id b <> BPanic.
Proof.
  intros reg app on_output alloc_id H1 H2 s id b H. apply C12_response_panic_is_apps in H as (f & v & rest & Hf & _ & Ht & [P|[P Q]]).
  - exact (H1 s id f v Hf Ht P).
  - exact (H2 s id f v Q P).
Qed.

(* A rejected event leaves the whole bridge state - app and registry - EQUAL, and it was rejected
   because it does not decode. *)
Theorem C12_rejected_event_noop : forall reg ev_fmt (app : Type) on_event alloc_id (s s' : bstate app) b e,
  process_event reg ev_fmt app on_event alloc_id s b = BErr e s' ->
  s' = s /\ e = EDeserializeEvent /\ decode reg ev_fmt b = None.
Proof. intros reg ev_fmt app on_event alloc_id s s' b e. exact (process_event_spec reg ev_fmt app on_event alloc_id s b (BErr e s')). Qed.

(* A rejected response leaves the app untouched and every other registry entry as it was ... *)
Theorem C12_rejected_response_local : forall reg (app : Type) on_output alloc_id (s s' : bstate app) id b e,
  handle_response reg app on_output alloc_id s id b = BErr e s' ->
  core s' = core s /\ forall id', id' <> id -> find_entry id' (entries s') = find_entry id' (entries s).
Proof.
  intros reg app on_output alloc_id s s' id b e H. apply handle_response_spec in H.
  assert (D : s' = s \/ s' = {| core := core s; entries := remove_entry id (entries s) |})
    by (destruct (find_entry id (entries s)) as [[| |]|]; intuition).
  destruct D as [->| ->]; split; auto. intros id' Hne. now apply find_remove_other.
Qed.

(* ... for a stream (or an id nobody waits for) it changes nothing at all ... *)
Theorem C12_rejected_response_noop : forall reg (app : Type) on_output alloc_id (s s' : bstate app) id b e,
  (find_entry id (entries s) = None \/ exists f, find_entry id (entries s) = Some (RMany f)) ->
  handle_response reg app on_output alloc_id s id b = BErr e s' -> s' = s.
Proof. intros reg app on_output alloc_id s s' id b e F H. apply handle_response_spec in H. now destruct F as [F|[f F]]; rewrite F in H. Qed.

(* ... and for a one-shot request exactly that request is gone (the closure was consumed before the
   bytes were looked at: request_serde.rs `ResolveSerialized::resolve`). *)
Theorem C12_rejected_response_once : forall reg (app : Type) on_output alloc_id (s s' : bstate app) id b e f,
  find_entry id (entries s) = Some (ROnce f) ->
  handle_response reg app on_output alloc_id s id b = BErr e s' ->
  e = EDeserializeOutput /\ decode reg f b = None /\
  s' = {| core := core s; entries := remove_entry id (entries s) |} /\ find_entry id (entries s') = None.
Proof.
  intros reg app on_output alloc_id s s' id b e f F H. apply handle_response_spec in H. rewrite F in H.
  destruct H as (-> & D & ->). repeat split; auto. apply find_remove_same.
Qed.

(* The rest of any history behaves as in a twin that never saw an input which was rejected without a
   state change (every rejected event; every rejected response to a stream). *)
Theorem C12_twin : forall reg ev_fmt (app : Type) on_event on_output alloc_id (s s1 : bstate app) pre i post e,
  final reg ev_fmt app on_event on_output alloc_id s pre = Some s1 ->
  step reg ev_fmt app on_event on_output alloc_id s1 i = BErr e s1 ->
  run reg ev_fmt app on_event on_output alloc_id s (pre ++ i :: post) =
    run reg ev_fmt app on_event on_output alloc_id s pre ++ BErr e s1 :: run reg ev_fmt app on_event on_output alloc_id s1 post /\
  run reg ev_fmt app on_event on_output alloc_id s (pre ++ post) =
    run reg ev_fmt app on_event on_output alloc_id s pre ++ run reg ev_fmt app on_event on_output alloc_id s1 post.
Proof.
  intros reg ev_fmt app on_event on_output alloc_id s s1 pre i post e F R. rewrite !run_app, F. split; [|reflexivity].
  cbn [run]. rewrite R. reflexivity.
Qed.
(* Full twin statement for a rejected response to a one-shot request (the twins' registries then
   differ in that one entry, and the slab hands its id out again, so the two runs agree only up to a
   renaming of request ids): carried by the twin correspondence on every run, not proved. *)
Definition C12_twin_once_full_statement : Prop :=
  forall reg ev_fmt (app : Type) on_event on_output alloc_id (s : bstate app) id b e s' f post,
    find_entry id (entries s) = Some (ROnce f) ->
    handle_response reg app on_output alloc_id s id b = BErr e s' ->
    (forall j, In j post -> match j with IResponse id' _ => id' <> id | IEvent _ => True end) ->
    exists rename : N -> N,
      map (fun r => match r with BOk _ out => Some (map snd out) | _ => None end) (run reg ev_fmt app on_event on_output alloc_id s' post) =
      map (fun r => match r with BOk _ out => Some (map snd out) | _ => None end)
          (run reg ev_fmt app on_event on_output alloc_id s
               (map (fun j => match j with IResponse id' x => IResponse (rename id') x | IEvent x => IEvent x end) post)).

(* The decoder itself: consumes a prefix of its input, ... *)
Theorem C12_decode_consumes : forall reg f b v rest,
  decode reg f b = Some (v, rest) -> (length rest <= length b)%nat /\ b = encode reg f v ++ rest.
Proof. intros reg f b v rest H. split; [pose proof (decode_min _ _ _ _ _ H); lia|apply (canonical _ _ _ _ _ H)]. Qed.

Theorem C12_decode_min : forall reg f b v rest,
  decode reg f b = Some (v, rest) -> (length rest + fmin (rmin reg) f <= length b)%nat.
Proof. exact decode_min. Qed.

(* ... cannot be made to loop by a length prefix: a sequence whose elements occupy at least one byte
   makes at most |b|+1 element attempts (and at most as many as the prefix says), whatever the
   prefix - 2^64-1 included, ... *)
Theorem C12_seq_attempts_bounded : forall reg f n b,
  (0 < fmin (rmin reg) f)%nat ->
  (seq_attempts (cdec (fcodec (rcodec reg) f)) n b <= length b + 1)%nat /\
  (seq_attempts (cdec (fcodec (rcodec reg) f)) n b <= N.to_nat n)%nat.
Proof.
  intros reg f n b H. destruct (seq_attempts_bound (cdec (fcodec (rcodec reg) f)) n b) as [B1 B2].
  split; [apply B1, nonempty_consuming, H|exact B2].
Qed.

(* ... every sequence of every regenerated registry is of that kind (no Vec of zero-sized things), *)
Theorem C12_no_zst_seq_kvapp : no_zst_seq Registry_kvapp = true.
Proof. vm_compute. reflexivity. Qed.
Theorem C12_no_zst_seq_malapp : no_zst_seq Registry_malapp = true.
Proof. vm_compute. reflexivity. Qed.
Theorem C12_no_zst_seq_zoo : no_zst_seq Registry_zoo = true.
Proof. vm_compute. reflexivity. Qed.
Theorem C12_no_zst_seq_protocol : no_zst_seq Registry_protocol = true.
Proof. vm_compute. reflexivity. Qed.

(* ([no_zst_seq] looks sizes up along the dependency order; for a well-formed registry that is the
   same as the global reading: every registered container passes the check with the global sizes,
   i.e. every sequence / map anywhere in it has elements of at least one byte - the premise of
   C12_seq_attempts_bounded) *)
Theorem C12_no_zst_seq_flat : forall reg, wf_registry reg = true -> no_zst_seq reg = true ->
  forall n c, lookup reg n = Some c -> cseq_ok (rmin reg) c = true.
Proof.
  intros reg W Z n c L. revert reg W n c L Z.
  apply (wf_lookup_ind (fun reg n c => no_zst_seq reg = true -> cseq_ok (rmin reg) c = true));
    [intros m c reg Hm _|intros m c0 reg n c Hm _ _ IH]; cbn [no_zst_seq]; intros Z; apply andb_prop in Z as [Z1 Z2].
  - exact (cseq_ok_mono _ _ (rmin_cons_le m c reg Hm) c Z1).
  - exact (cseq_ok_mono _ _ (rmin_cons_le m c0 reg Hm) c (IH Z2)).
Qed.

(* ... a string / byte-buffer length larger than what is left is refused before anything is taken, and
   what is taken is part of the input, ... *)
Theorem C12_length_checked_first : forall b n r,
  u64_dec b = Some (n, r) -> (N.of_nat (length r) < n)%N -> take_bytes b = None.
Proof. intros b n r E L. unfold take_bytes. now rewrite E, (proj2 (N.leb_gt _ _) L). Qed.
Theorem C12_taken_is_input : forall b bs r, take_bytes b = Some (bs, r) -> (length bs + 8 + length r = length b)%nat.
Proof.
  intros b bs r H. apply take_bytes_canon in H as [-> _]. unfold u64_enc. rewrite !app_length, le_enc_length. lia.
Qed.

(* ... and what bincode 1.3.3 + serde 1.0.219 reserve up front for a sequence is capped at 1 MiB
   whatever the prefix says (NOT at |b|: a 13-byte input can cost a 1 MiB allocation - observed). *)
Theorem C12_seq_prealloc_capped : forall hint elem_size,
  (cautious hint elem_size * elem_size <= MAX_PREALLOC_BYTES)%N /\ (cautious hint elem_size <= hint)%N.
Proof.
  intros hint es. unfold cautious. destruct (N.eqb_spec es 0) as [->|E]; [split; apply N.le_0_l|].
  split; [|apply N.le_min_l]. rewrite N.mul_comm. etransitivity; [apply N.mul_le_mono_l, N.le_min_r|now apply N.mul_div_le].
Qed.
(* the full allocation statement (every allocation of a whole decode, elements included) is about
   Rust's in-memory sizes, which the schema does not determine: measured by the counting allocator *)
Definition C12_decode_bounded_full_statement : Prop :=
  forall (alloc_trace : registry -> format -> list byte -> list N) reg f b x,
    In x (alloc_trace reg f b) -> (x <= N.max MAX_PREALLOC_BYTES (16 * N.of_nat (length b)))%N.

(* crux_kv under the bridge (the instance that used to be a known class): for EVERY byte string offered
   as the response to a pending key-value call made through crux_kv, handle_response returns - a value
   or an error, never a panic.  Before fix e5ed299 the 12 zero bytes `Ok{Get{None}}` answering a Set
   panicked; now the app is told KeyValueError::Other "unexpected response: expected Set". *)
Theorem C12_kv_total : forall reg c b, kv_respond reg c b <> BPanic.
Proof. intros reg c b. apply C12_total_response_partial; intros; rewrite kv_continuation_done; discriminate. Qed.

Theorem C12_kv_mismatch_is_an_error : forall reg c b x,
  bridge_in reg b = Some (KOk x) -> response_kind x <> call_kind c ->
  exists r, bridge_in reg b = Some r /\ deliver Command c r = Failed (mismatch_error (call_kind c)).
Proof. intros reg c b x E Hne. exists (KOk x). split; [exact E|now apply deliver_mismatch]. Qed.

Example C12_kv_former_witness :
  kv_respond Registry_kvapp (CSet [] []) (repeat Coq.Init.Byte.x00 12) = BOk {| core := tt; entries := [] |} [] /\
  option_map (deliver Command (CSet [] [])) (bridge_in Registry_kvapp (repeat Coq.Init.Byte.x00 12)) = Some (Failed (mismatch_error KSet)).
Proof. vm_compute. split; reflexivity. Qed.

(* non-vacuity: a truncated event is rejected by the model, an extended one is accepted with the
   extension left over, a huge length prefix is rejected *)
Example C12_nonvacuous :
  decode Registry_malapp (FTypeName "MalEvent") (Cases.bytes_of_hex "00000000070000000100000000000000") = None /\
  decode Registry_malapp (FTypeName "MalEvent") (Cases.bytes_of_hex "0000000007000000010000000000000041ffff")
    = Some (VEnum 0 (VList [VInt 7; VBytes (Cases.bytes_of_hex "41")]), Cases.bytes_of_hex "ffff") /\
  decode Registry_malapp (FTypeName "MalEvent") (Cases.bytes_of_hex "0000000007000000ffffffffffffffff41") = None /\
  predict Registry_malapp 3 FUnit [] = false.
Proof. vm_compute. repeat split. Qed.
