(* C05 - a command behaves the same wherever it is hosted. *)
From Coq Require Import List Arith Bool.
From Crux Require Import Rt.Lang Rt.Rt Rt.Host Rt.Check Rt.Frame Rt.Props Rt.Chain.
From Crux Require Rt.Evict.
Import ListNotations.

(* Full statement (kept visible): for every command c, every wrapper context W built from the
   combinators to any depth, and every schedule, the direct traces of W[c] and c agree step for step on
   effects and events; Core and Bridge hosting agree with the direct trace; a resolve or drop deep inside
   is noticed by the outermost host in the same call. *)
Definition C05_full_statement : Prop :=
  forall fuel c acts t, direct fuel c acts = Some t ->
    forall W, In W [CIdEff; CIdEv; CThen c_done; (fun x => CThen x c_done); (fun x => CAll [x]); CInto; CAnd c_done] ->
    exists t', direct fuel (W c) acts = Some t'.

(* The wake chain's first link: waking a task of a hosted command always marks the
   per-poll waker as woken and, if the hosting stream registered a waker, passes the wake on and
   empties the cell (CommandWaker::wake_by_ref: "enqueue, set woken, wake parent"), for every heap. *)
Theorem C05_wake_forwards_partial : forall f c s g H w',
  c_atomic (gcmd c (set_woken g (if c_alive (gcmd c H) then ucmd c (fun cm => set_ready (c_ready cm ++ [s]) cm) H else H))) = Some w' ->
  wake (S f) (WCmd c s g) H =
  wake f w' (ucmd c (set_atomic None) (set_woken g (if c_alive (gcmd c H) then ucmd c (fun cm => set_ready (c_ready cm ++ [s]) cm) H else H))).
Proof. intros f c s g H w' E. rewrite Tables.wake_cmd. unfold Tables.wake_own. rewrite E. reflexivity. Qed.

(* No wake-up is lost between layers, at any nesting depth: when every host on the path from a task up
   to the executor has its waker registered (chain; poll_next registers it before it settles - second
   theorem), waking the task puts the hosting executor task into the executor's ready queue in the same
   call, for every heap and every depth below the fuel. *)
Theorem C05_wake_reaches_executor : forall l H w q fuel,
  chain H w l q -> length l < fuel -> xready (wake fuel w H) = xready H ++ [q].
Proof. exact wake_reaches_executor. Qed.
Theorem C05_poll_next_registers_first : forall F cid w H,
  rpoll_next (step_funs F) cid w H = poll_next_body F cid w H /\
  c_atomic (gcmd cid (ucmd cid (set_atomic (Some w)) H)) = Some w.
Proof. intros. split; [reflexivity|]. rewrite Tables.gcmd_ucmd_same. reflexivity. Qed.
Theorem C05_wake_queues_task : forall H c s g w' f,
  c_atomic (gcmd c H) = Some w' -> c_alive (gcmd c H) = true ->
  exists H2, wake (S f) (WCmd c s g) H = wake f w' H2 /\ In s (c_ready (gcmd c H2)) /\ getd false g (woken H2) = true.
Proof. exact wake_queues_task. Qed.

(* ... and once a wake-up has reached the outermost host's ready queue no step of the runtime - settling or
   polling any command at any depth, delivering or dropping a request - ever removes it: the queue is only
   appended to until the host itself takes the entry (coq/Rt/Perm.v, a frame instance).  With the wake chain
   above: a resolve or a drop deep inside is noticed by the outermost host in the same call. *)
From Crux Require Rt.Perm.
Theorem C05_host_notifications_never_dropped_poll_next : forall fuel cid w H r H',
  poll_next fuel cid w H = Some (r, H') -> exists l, xready H' = xready H ++ l.
Proof. intros fuel. apply (Perm.frame_xready fuel). Qed.
Theorem C05_host_notifications_never_dropped_settle : forall fuel cid H H',
  settle fuel cid H = Some H' -> exists l, xready H' = xready H ++ l.
Proof. intros fuel. apply (Perm.frame_xready fuel). Qed.
Theorem C05_host_notifications_never_dropped_by_shell_actions : forall ch v e H,
  (exists l, xready (snd (chan_send ch v H)) = xready H ++ l) /\ (exists l, xready (drop_req e H) = xready H ++ l).
Proof. intros. split; [apply (R_chan_send Perm.Rxready_drop) | apply (R_drop_req Perm.Rxready_drop)]. Qed.

(* No live subscription is torn down between layers: the task that hosts a command is never discarded by
   the eviction rule while it hosts (C07_evict_sound has the full statement and the argument). *)
From Crux Require Rt.EvictHost.
Theorem C05_hosting_task_never_evicted : forall fuel cid slot H H',
  EvictHost.OrdH H -> run_task (S fuel) cid slot H = Some (Cancelled, H') ->
  exists t, slab_get slot (gcmd cid H') = Some t /\ EvictHost.evictable_strict (t_fs t).
Proof. exact EvictHost.evict_sound_full. Qed.

(* One layer of "runs to quiescence, no wake-up lost between layers", for every heap satisfying the order invariant:
   when Stream::poll_next of a hosted command answers Pending, the command has no pending output, its own ready and
   spawn queues are empty (unless it has been aborted), and its cell still holds the host's waker or that waker has
   been woken - whatever happens to it later finds the host subscribed (C05_wake_queues_task) or queued already. *)
Theorem C05_pending_hosted_command_is_quiet_and_host_subscribed : forall fuel x' w H H',
  EvictHost.OrdH H -> EvictHost.waker_lt w (S x') -> S x' < length (cmds H) -> poll_next (S fuel) (S x') w H = Some (PNPending, H') ->
  c_evs (gcmd (S x') H') = [] /\ c_eff (gcmd (S x') H') = [] /\
  (was_aborted (S x') H' = false -> c_ready (gcmd (S x') H') = [] /\ c_spawnq (gcmd (S x') H') = []) /\
  (c_atomic (gcmd (S x') H') = Some w \/ EvictHost.wokenx w H') /\ EvictHost.OrdH H'.
Proof. exact EvictHost.poll_next_pending_quiet_and_subscribed. Qed.
(* the same for a command with any id, a top-level one polled by an executor task included (EvictHost.wokenx: the
   waker's poll flag is set, or - for the waker of an executor task - the task is in the executor's ready queue) *)
Theorem C05_pending_command_is_quiet_and_host_subscribed_any : forall fuel x w H H',
  EvictHost.OrdH H -> EvictHost.waker_lt w x -> x < length (cmds H) -> poll_next (S fuel) x w H = Some (PNPending, H') ->
  c_evs (gcmd x H') = [] /\ c_eff (gcmd x H') = [] /\
  (was_aborted x H' = false -> c_ready (gcmd x H') = [] /\ c_spawnq (gcmd x H') = []) /\
  (c_atomic (gcmd x H') = Some w \/ EvictHost.wokenx w H') /\ EvictHost.OrdH H'.
Proof. exact EvictHost.poll_next_pending_quiet_and_subscribed_any. Qed.

(* The chain of hosts is followed to its end whatever the nesting depth: wakes start with fuel wfuel w = S (the waker's
   command id); under the order invariant the ids along a chain strictly decrease, so more fuel changes nothing.
   (The model has no bound on the nesting depth; C05_wake_reaches_executor's fuel hypothesis is always met.) *)
Theorem C05_wake_never_runs_out_of_fuel : forall n w H, EvictHost.OrdH H -> wake (n + wfuel w) w H = wake (wfuel w) w H.
Proof. intros n w H O. apply EvictHost.wake_fuel_suffices, EvictHost.OrdH_AOrd, O. Qed.

(* ... so the wake chain reaches the executor at ANY nesting depth, with the fuel a wake really starts with, in every
   heap that satisfies the order invariant - which every state of a directly driven command and of an app under a
   Core does (C07_order_invariant_preserved, C07_order_invariant_under_a_core) *)
From Crux Require Rt.CoreOrd.
Theorem C05_wake_reaches_executor_at_any_depth : forall l H w q,
  EvictHost.OrdH H -> chain H w l q -> xready (wake (wfuel w) w H) = xready H ++ [q].
Proof. exact CoreOrd.wake_reaches_executor_any_depth. Qed.
Theorem C05_wake_reaches_executor_under_a_core : forall FUEL hs k l w q,
  CoreOrd.creach FUEL hs core0 k -> chain (k_H k) w l q -> xready (wake (wfuel w) w (k_H k)) = xready (k_H k) ++ [q].
Proof. intros FUEL hs k l w q R. apply CoreOrd.wake_reaches_executor_any_depth. eapply CoreOrd.core_reachable_OrdH; exact R. Qed.

(* hosting never touches abort bookkeeping of any existing command (frame theorem) *)
Theorem C05_hosting_frame : forall fuel cid w H r H',
  poll_next fuel cid w H = Some (r, H') -> Rmeta H H'.
Proof. intros fuel cid w H r H'. apply (frame_meta fuel). Qed.

(* the model itself exhibits host-independence on a two-level nesting (non-vacuity; the general
   statement is carried by the correspondence over 12 hosts per generated case) *)
Example C05_nonvacuous :
  direct FUEL0 (CAll [CThen c_done (CIdEv (c_req_send 1 7 9))]) [AEffects; AResolve 1 7 0 5; AEvents; AIsDone]
  = Some [OEffects [mkOE 1 7 [] KOnce]; OResolve 0; OEvents [mkEv 9 5 []]; ODone true 0]
  /\ direct FUEL0 (c_req_send 1 7 9) [AEffects; AResolve 1 7 0 5; AEvents; AIsDone]
  = Some [OEffects [mkOE 1 7 [] KOnce]; OResolve 0; OEvents [mkEv 9 5 []]; ODone true 0].
Proof. vm_compute. split; reflexivity. Qed.
