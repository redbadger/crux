(* C01 - a core call runs to quiescence and hands over every effect exactly once. *)
From Coq Require Import List Arith Bool.
From Crux Require Import Rt.Lang Rt.Rt Rt.Host Rt.Check Rt.Frame Rt.Props Rt.HostProps.
Import ListNotations.

(* The observable form of C01 is C01_ok of Check.v: a Noop probe (an event nobody handles) submitted right
   after any accepted call returns no effect and changes nothing but the log - nothing runnable had been
   left behind, nothing was deferred to a later call.  It is PROVED of every trace of the Core model, for
   every app in which event 99 has no handler, every history and every fuel >= 6 (below that not even
   Command::done() can be run): *)
From Crux Require Rt.Probe.
Theorem C01_ok_holds_of_model : forall F hs d p acts os,
  lookup 99 hs = c_done ->
  under_core (S (S (S (S (S (S F)))))) hs acts = Some os -> C01_ok (true, d, p, hs, acts, os) = true.
Proof.
  intros F hs d p acts os Hp E. destruct (Probe.crun_probes F hs Hp acts core0 os None E I) as [A B].
  unfold C01_ok. rewrite B, A. reflexivity.
Qed.

(* its core, for ANY heap (whatever channels, tasks and other commands it holds): on an idle Core - executor
   queues empty, no event pending, request channel drained, which is how every accepted call leaves it
   (C01_core_idle_at_return below) - the call returns no effect, applies exactly its own event, leaves the
   Core idle and the shell's requests untouched *)
Theorem C01_probe_silent_model : forall F hs tg v k,
  lookup tg hs = c_done ->
  k_spawn k = [] -> xready (k_H k) = [] -> k_events k = [] -> hout (k_H k) = [] ->
  exists k', cstep (S (S (S (S (S (S F)))))) hs (AEvent tg v) k = Some (OCall 0 [] (k_log k ++ [mkEv tg v []]), k') /\
             k_spawn k' = [] /\ xready (k_H k') = [] /\ k_events k' = [] /\ hout (k_H k') = [] /\
             k_log k' = k_log k ++ [mkEv tg v []] /\ k_reqs k' = k_reqs k.
Proof. exact Probe.probe_silent_model. Qed.

(* What the probe does not observe, and what therefore rests on the correspondence alone (kept
   visible): that every command hosted inside another, at every depth, has empty ready and spawn queues when
   the call returns, and that each requested effect is handed over exactly once. *)
Definition C01_full_statement : Prop :=
  forall fuel hs acts os, under_core fuel hs acts = Some os -> C01_ok (true, false, c_done, hs, acts, os) = true.

(* For every fuel, heap and command: run_until_settled leaves the command's own ready and spawn queues empty
   unless the command is aborted (by the shell before the call, or by one of its own tasks during it). *)
Theorem C01_settle_quiescent_partial : forall fuel cid H H',
  was_aborted cid H = false -> settle fuel cid H = Some H' ->
  c_ready (gcmd cid H') = [] /\ c_spawnq (gcmd cid H') = [].
Proof. exact settle_quiescent. Qed.

(* A call never loses or reorders applied events - the log after any call extends the log before it (used
   with C03). *)
Theorem C01_log_extends : forall fuel0 fuel hs k k', process fuel0 fuel hs k = Some k' -> extends (k_log k) (k_log k').
Proof. exact process_log. Qed.

(* For every app, fuel and core state: when the event loop of a call returns, the executor's spawn queue and
   ready queue are empty and no emitted event is left unapplied - no runnable work is left behind at the level
   of the core. *)
Theorem C01_core_idle_at_return : forall fuel0 fuel hs k k', process fuel0 fuel hs k = Some k' ->
  k_spawn k' = [] /\ xready (k_H k') = [] /\ k_events k' = [].
Proof. exact process_idle. Qed.

(* No runtime step removes an abort or changes the identity of existing commands (the frame theorem
   instantiated; every function of the runtime, every fuel). *)
Theorem C01_frame_meta : forall fuel, spec Rmeta (funs fuel).
Proof. exact frame_meta. Qed.

(* Exactly-once hand-over at the core's request channel, for every app, fuel and core state: during a call
   the channel only grows - no step (polling any task of any command at any depth, dropping finished
   commands, spawning what update returns) removes or rewrites a request already in it - and the call then
   returns the WHOLE channel, leaves it empty and records every returned request once in the shell's table.
   An effect that reached the channel is therefore in the return value of exactly the call during which it
   was requested: not dropped, not duplicated, not deferred to a later call. *)
From Crux Require Rt.Perm.
Theorem C01_requests_only_accumulate : forall fuel0 fuel hs k k',
  process fuel0 fuel hs k = Some k' -> exists requested, hout (k_H k') = hout (k_H k) ++ requested.
Proof. exact process_hout. Qed.
Theorem C01_call_hands_over_the_whole_channel : forall code k,
  fst (take_out code k) = OCall code (map oeff_of (hout (k_H k))) (k_log k) /\
  hout (k_H (snd (take_out code k))) = [] /\
  k_reqs (snd (take_out code k)) = k_reqs k ++ map (fun e => mkRq e false) (hout (k_H k)).
Proof. exact take_out_hands_over_everything. Qed.
Theorem C01_no_runtime_step_touches_requested_effects : forall fuel cid w H r H',
  poll_next fuel cid w H = Some (r, H') -> exists requested, hout H' = hout H ++ requested.
Proof. exact Perm.hout_poll_next. Qed.

(* One layer of quiescence, proved of the runtime model for every heap that satisfies the order invariant (every state a
   core can reach does: C07_order_invariant_under_a_core): when QueuingExecutor::run_task returns and the task still
   hosts its command, the command has no output left, its own ready and spawn queues are empty (unless it has been
   aborted, then its tasks are gone), and its AtomicWaker cell holds the executor task's waker or the executor task is
   already queued again - so a later wake-up of any of its tasks reaches the executor's ready queue
   (C05_wake_reaches_executor_at_any_depth).  For the layers below: C05_pending_command_is_quiet_and_host_subscribed_any. *)
From Crux Require Rt.EvictHost Rt.CoreOrd.
Theorem C01_executor_task_leaves_its_command_quiet_and_subscribed : forall FUEL' fuel q k k' cid,
  EvictHost.OrdH (k_H k) -> xget q (k_slab k) = Some cid -> cid < length (cmds (k_H k)) ->
  xrun_task (S FUEL') fuel q k = Some k' -> xget q (k_slab k') = Some cid ->
  c_evs (gcmd cid (k_H k')) = [] /\ c_eff (gcmd cid (k_H k')) = [] /\
  (was_aborted cid (k_H k') = false -> c_ready (gcmd cid (k_H k')) = [] /\ c_spawnq (gcmd cid (k_H k')) = []) /\
  (c_atomic (gcmd cid (k_H k')) = Some (WExec q) \/ In q (xready (k_H k'))) /\ EvictHost.OrdH (k_H k').
Proof. exact CoreOrd.xrun_task_leaves_command_quiet_and_subscribed. Qed.

(* Below the core's channel: exactly-once hand-over on every HOP between a hosted command and its host, at any nesting
   level.  (1) the effect queue of every command is FIFO through every function of the runtime (it only loses at the
   front and gains at the back: nothing is duplicated into it or taken out of its middle); (2) Stream::poll_next of a
   command hands the host the element at the head of its queue and removes exactly that element; (3) the hosting
   future appends exactly that element (through its mapping) to the back of its own command's queue, once, and polls
   again.  (Rt/Fifo.v over the primitive-aware frame principle Rt/Frame2.v.) *)
From Crux Require Rt.Fifo.
Theorem C01_effect_queues_are_fifo : forall fuel cid w H r H' c, poll_next fuel cid w H = Some (r, H') ->
  Fifo.fifo (c_eff (gcmd c H)) (c_eff (gcmd c H')).
Proof. intros fuel cid w H r H' c E. exact (proj2 (Fifo.fifo_poll_next fuel cid w H r H' E c)). Qed.
Theorem C01_hosted_command_hands_over_the_head_of_its_queue : forall fuel cid w H e H',
  poll_next (S fuel) cid w H = Some (PNEffect e, H') ->
  exists H1 rest, settle fuel cid (ucmd cid (set_atomic (Some w)) H) = Some H1 /\
    c_eff (gcmd cid H1) = e :: rest /\ H' = ucmd cid (set_eff rest) H1.
Proof.
  intros fuel cid w H e H' E. destruct (Fifo.poll_next_hands_over_the_head fuel cid w H _ H' E) as (H1 & S1 & rest & _ & E2 & E3).
  exists H1, rest. split; [exact S1 | split; [exact E2 | exact E3]].
Qed.
Theorem C01_host_appends_it_once_and_polls_again : forall f c w fs H x meff mev k e H1,
  f_leaf fs = LHost x meff mev k -> poll_next f x w H = Some (PNEffect e, H1) ->
  poll (S f) c w fs H = poll f c w fs (push_eff c (map_eff meff e) H1) /\
  c_eff (gcmd c (push_eff c (map_eff meff e) H1)) = c_eff (gcmd c H1) ++ [map_eff meff e].
Proof.
  intros f c w fs H x meff mev k e H1 EL E. split; [eapply Fifo.host_hop_effect; eassumption | apply Fifo.push_eff_appends].
Qed.

(* The same for apps written against the LEGACY capability API (coq/Rt/Legacy.v: QueuingExecutor::run_all with its
   did_some_work flag, CapabilityContext::{spawn, notify_shell, update_app, request_from_shell, stream_from_shell}):
   run_all returns only with the spawn queue and the ready queue empty; the event loop returns only with, in
   addition, no event unapplied; during a call the request channel only grows and the call hands over all of it.
   For every handler table, core state and fuel. *)
From Crux Require Rt.Legacy Rt.LegacyProps.
Theorem C01_legacy_run_all_runs_to_quiescence : forall fuel k k',
  Legacy.lrun_all fuel k = Some k' -> Legacy.l_spawn k' = [] /\ Legacy.l_ready k' = [].
Proof. intros fuel k k' E. destruct (LegacyProps.lrun_all_spec fuel k k' E) as (_ & A & B). split; assumption. Qed.
Theorem C01_legacy_call_runs_to_quiescence : forall fuel hs k k', Legacy.lprocess fuel hs k = Some k' ->
  Legacy.l_spawn k' = [] /\ Legacy.l_ready k' = [] /\ Legacy.l_events k' = [] /\
  exists requested, Legacy.l_out k' = Legacy.l_out k ++ requested.
Proof.
  intros fuel hs k k' E. destruct (LegacyProps.lprocess_spec fuel hs k k' E) as (_ & O & A & B & C).
  split; [exact A | split; [exact B | split; [exact C | exact O]]].
Qed.
Theorem C01_legacy_call_hands_over_the_whole_channel : forall code k,
  fst (Legacy.ltake_out code k) = OCall code (map Legacy.loeff (Legacy.l_out k)) (Legacy.l_log k) /\
  Legacy.l_out (snd (Legacy.ltake_out code k)) = [] /\
  Legacy.l_reqs (snd (Legacy.ltake_out code k)) = Legacy.l_reqs k ++ Legacy.l_out k.
Proof. exact LegacyProps.ltake_out_hands_over_everything. Qed.

(* ... and the observable form of the property holds of EVERY trace of the legacy host as well: for every app without
   a handler for the probe event and every history, a Noop probe after any accepted call returns no effect and changes
   nothing but the log. *)
Theorem C01_ok_holds_of_legacy_model : forall hs acts os, Legacy.llookup 99 hs = [] ->
  Legacy.under_legacy_core hs acts = Some os -> C01_probes acts os None = true.
Proof. exact LegacyProps.C01_ok_holds_of_legacy_model. Qed.

(* C01 for the reference semantics of an app under a Core (coq/Rt/RefCore.v), with which
   every call of the implementation is compared on every run (RC_ok).  For every app, history and state:
   (a) re-running any residual command that a call has run produces no output, allocates nothing and changes
   nothing, from any request counter and with any larger fuel; (b) every accepted call (an event, or a
   resolution the arity allows) leaves the whole app idle: no emitted event unapplied, every command settled;
   (c) on an idle app, an event whose handler returns Command::done() returns no effect, appends exactly
   itself to the log, starts nothing and leaves the app idle - nothing had been left behind by the calls
   before it, nothing was deferred to it. *)
From Crux Require Rt.Ref Rt.RefCore Rt.RefCoreProps Rt.RefQuiesce.
Theorem C01_ref_rerun_is_silent : forall fuel en c n c' n' o,
  Ref.run fuel en c n = Some (c', n', o) -> forall g m, fuel <= g -> Ref.run g en c' m = Some (c', m, Ref.ro0).
Proof. exact RefQuiesce.run_idem. Qed.
Theorem C01_ref_call_leaves_idle : forall hs a st effs lg st',
  RefCore.kstep hs a st = Some (RefCore.KCall 0 effs lg, st') -> RefQuiesce.idle st'.
Proof.
  intros hs a st effs lg st' E.
  apply RefCoreProps.kstep_inv in E as [[_ N] | [(N & _) | (st1 & st2 & P & Y & _)]]; [destruct (N _ _ eq_refl) | discriminate N|].
  unfold RefCore.kreturn in Y. inversion Y; subst. exact (RefQuiesce.kprocess_idle _ _ _ _ P).
Qed.
Theorem C01_ref_probe_silent : forall hs tg v st,
  RefQuiesce.idle st -> RefCore.ks_out st = [] -> lookup tg hs = c_done ->
  exists st', RefCore.kstep hs (AEvent tg v) st = Some (RefCore.KCall 0 [] (RefCore.ks_log st ++ [mkEv tg v []]), st') /\
              RefCore.ks_cmds st' = RefCore.ks_cmds st /\ RefCore.ks_n st' = RefCore.ks_n st /\
              RefCore.ks_reqs st' = RefCore.ks_reqs st /\ RefQuiesce.idle st'.
Proof. exact RefQuiesce.probe_silent. Qed.
(* non-vacuity: after a call that leaves a request outstanding the app is idle with one waiting strand *)
Definition C01_demo_app : handlers := [(1, c_req_send 5 0 7)].
Definition C01_demo_st : RefCore.kst :=
  Eval vm_compute in match RefCore.kstep C01_demo_app (AEvent 1 0) RefCore.ks0 with Some (_, s) => s | None => RefCore.ks0 end.
Example C01_ref_nonvacuous :
  RefQuiesce.idle C01_demo_st /\ RefCore.ks_out C01_demo_st = [] /\ lookup 99 C01_demo_app = c_done /\
  length (RefCoreProps.strands_of (RefCore.ks_cmds C01_demo_st)) = 1.
Proof.
  split; [|split; [|split]]; try reflexivity.
  apply (C01_ref_call_leaves_idle C01_demo_app (AEvent 1 0) RefCore.ks0 [Ref.mkRE 5 0 [] 0 1] [mkEv 1 0 []]).
  vm_compute. reflexivity.
Qed.

Example C01_nonvacuous :
  under_core FUEL0 [(1, c_req_send 5 0 7)] [AEvent 1 0; AEvent 99 0; AResolve 5 0 0 11; AEvent 99 0]
  = Some [OCall 0 [mkOE 5 0 [] KOnce] [mkEv 1 0 []];
          OCall 0 [] [mkEv 1 0 []; mkEv 99 0 []];
          OCall 0 [] [mkEv 1 0 []; mkEv 99 0 []; mkEv 7 11 []];
          OCall 0 [] [mkEv 1 0 []; mkEv 99 0 []; mkEv 7 11 []; mkEv 99 0 []]].
Proof. vm_compute. reflexivity. Qed.
