(* C18 - every timer has a unique id and at most one outcome.
   Model: coq/Timer/Machine.v (command API), coq/Timer/Legacy.v (legacy capability API) and coq/Timer/Mixed.v
   (the id counter shared by all entry points);
   outcome automaton C18_ok / C18_ok1 and the vocabulary of the statements (events_of, effects_of,
   answered, app_cleared, cleared_before_start, req_dropped, good, timer_view ...): coq/Timer/Spec.v;
   proofs: coq/Timer/MachineInv.v and MachineProofs.v (the model is accepted), SpecProofs.v and SpecWeak.v (what
   accepted traces satisfy), LegacyProofs.v, MixedProofs.v.

   Structure: (1) the model's observations are accepted by the automaton for ALL input sequences to
   any number of timers; (2) every accepted (inputs, observations) pair - the model's, and every
   implementation trace the check finds accepted - satisfies the clauses of the property; (3) the legacy API:
   accepted with two listed classes tolerated, the property as stated outside them; (4) ids are distinct
   across all entry points of one process.
   "good" inputs = every shell response has the right kind and id; responses of a wrong kind or id
   make the code panic on purpose (command.rs: "a developer error"), which the model reproduces
   (Machine.poll_fut) and the automaton allows (h_bad). *)
From Coq Require Import List NArith Bool Arith.
From Crux Require Import Timer.Machine Timer.Spec Timer.SpecProofs Timer.SpecWeak Timer.MachineInv Timer.MachineProofs
  Timer.Legacy Timer.LegacyProofs Timer.Mixed Timer.MixedProofs.
Import ListNotations.

(* (1) the model is accepted, for every interleaving of: first poll, fire, clear, drop handle,
   drop request, answer clear, drop clear request, late / duplicate / wrong responses; several
   timers at once; notify_after and notify_at.  The id counter is a wrapping usize: fewer than
   2^64 timers. *)
Theorem C18_model_accepted : forall c0 xs, (c0 < USIZE)%N -> (N.of_nat (count_starts xs) <= USIZE)%N ->
  C18_ok xs (srun (sys0 c0) xs) = true.
Proof.
  intros c0 xs Hc Hn. apply (sok_sound_gen c0); [|exact Hn].
  split; [constructor|split; [reflexivity|apply mix_id_0, Hc]].
Qed.

Theorem C18_model_accepted_one : forall k id xs, C18_ok1 k id xs (trun (new_timer k id) xs) = true.
Proof. intros. apply ok1_sound_gen; reflexivity. Qed.

(* hosted under Core, where is_done of a hosted command cannot be observed (every done flag replaced
   by "an outcome has been reported so far"): still accepted - for the model, and for every
   accepted trace *)
Theorem C18_done_flag_forgotten : forall xs os, C18_ok xs os = true -> C18_ok xs (weak [] xs os) = true.
Proof. intros xs os H. exact (weak_sok xs [] os H [] (Forall2_nil _)). Qed.
Theorem C18_model_accepted_core_host : forall c0 xs, (c0 < USIZE)%N -> (N.of_nat (count_starts xs) <= USIZE)%N ->
  C18_ok xs (weak [] xs (srun (sys0 c0) xs)) = true.
Proof. intros c0 xs Hc Hn. apply C18_done_flag_forgotten. exact (C18_model_accepted c0 xs Hc Hn). Qed.

(* in an accepted run of several timers the ids handed out are pairwise distinct *)
Theorem C18_unique_ids : forall xs os, C18_ok xs os = true -> NoDup (started_ids xs os).
Proof. intros xs os H. exact (sok_ids_nodup xs [] os H (NoDup_nil N)). Qed.

(* in an accepted run of several timers the i-th timer started, with its own inputs and observations picked
   out of the interleaving, is accepted by the one-timer automaton *)
Theorem C18_each_timer_accepted : forall xs os i k id l, C18_ok xs os = true ->
  timer_view 0 i xs os = Some (k, id, l) -> C18_ok1 k id (map fst l) (map snd l) = true.
Proof. intros xs os i k id l H Hv. exact (sok_proj_new xs [] os H i k id l Hv). Qed.

(* (2) clauses satisfied by every accepted trace of one timer under good inputs *)

Theorem C18_at_most_one_outcome : forall k id xs os, C18_ok1 k id xs os = true -> good k id xs = true ->
  length (events_of os) <= 1.
Proof. intros k id xs os Hacc Hg. exact (one_outcome_gen k id xs hist0 os Hacc eq_refl eq_refl Hg). Qed.

(* Completed only if the shell answered the timer's request (an accepted response of the right
   kind and id, earlier in the trace), and the CompletedTimerHandle carries the timer's own id *)
Theorem C18_completed_only_if_answered : forall k id xs os, C18_ok1 k id xs os = true -> good k id xs = true ->
  forall n i, In (Completed i) (events_of (firstn n os)) ->
  i = id /\ answered k id (firstn n xs) (firstn n os) = true.
Proof.
  intros k id xs os Hacc Hg n i Hin.
  destruct (completed_gen k id _ hist0 _ (ok1_firstn k id n _ _ _ Hacc) eq_refl eq_refl (good_firstn k id n _ Hg) i Hin)
    as [H1 [H2|H2]]; [discriminate|auto].
Qed.

(* Cleared only if the app cleared it (the first use of the handle, earlier in the trace, is clear()) *)
Theorem C18_cleared_only_if_cleared : forall k id xs os, C18_ok1 k id xs os = true -> good k id xs = true ->
  forall n, In Cleared (events_of (firstn n os)) -> app_cleared (firstn n xs) = true.
Proof.
  intros k id xs os Hacc Hg n Hin.
  destruct (cleared_gen k id _ hist0 _ (ok1_firstn k id n _ _ _ Hacc) eq_refl eq_refl (good_firstn k id n _ Hg) Hin)
    as [H|[_ H]]; [discriminate|exact H].
Qed.

(* a timer cleared before its command ever ran sends nothing to the shell, ever *)
Theorem C18_clear_before_start_silent : forall k id xs os, C18_ok1 k id xs os = true -> good k id xs = true ->
  cleared_before_start xs = true -> effects_of os = [].
Proof. intros k id xs os Hacc Hg H. apply (silent_gen k id xs hist0 os Hacc eq_refl eq_refl Hg). right. cbn. auto. Qed.

(* all a timer ever sends: its request at most once, then at most one Clear, for its own id *)
Theorem C18_effects_shape : forall k id xs os, C18_ok1 k id xs os = true -> good k id xs = true ->
  effects_of os = [] \/ effects_of os = [start_eff k id] \/ effects_of os = [start_eff k id; EClear id].
Proof. intros k id xs os Hacc Hg. exact (effects_gen k id xs hist0 os Hacc eq_refl eq_refl Hg). Qed.

(* what each run of the command produces, as a function of what happened before ([hist] flags):
   after the outcome nothing; cleared-before-start: Cleared, silently; first run: the request;
   answer waiting: Completed and NO clear, even if the app has cleared meanwhile; cleared while
   pending: exactly [Clear{id}]; Clear answered: Cleared; otherwise nothing, and done only after a
   request drop (and, while waiting for the timer, only if the handle is gone too) *)
Theorem C18_poll_clauses : forall k id h e v d, chk_poll k id h e v d = true -> poll_shape k id h e v d.
Proof. exact chk_poll_shape. Qed.

(* dropping the handle never cancels the timer: the command reports done without an outcome only
   if the shell dropped one of the timer's requests *)
Theorem C18_done_only_if_request_dropped : forall k id xs os, C18_ok1 k id xs os = true -> good k id xs = true ->
  forall n, has_done (firstn n os) -> events_of (firstn n os) = [] ->
  req_dropped (firstn n xs) (firstn n os) = true.
Proof.
  intros k id xs os Hacc Hg n Hd He.
  destruct (done_gen k id _ hist0 _ (ok1_firstn k id n _ _ _ Hacc) eq_refl eq_refl (good_firstn k id n _ Hg) eq_refl Hd He)
    as [H|H]; [discriminate|exact H].
Qed.

(* clears, answers, drops arriving after the outcome are ignored: every later run is empty *)
Theorem C18_late_ignored : forall k id xs1 os1 xs2 os2, length xs1 = length os1 ->
  C18_ok1 k id (xs1 ++ xs2) (os1 ++ os2) = true -> good k id (xs1 ++ xs2) = true ->
  events_of os1 <> [] \/ has_done os1 -> Forall quiet_obs os2.
Proof.
  intros k id xs1 os1 xs2 os2 Hl Hacc Hg Hev.
  destruct (ok1_app k id xs1 os1 xs2 os2 hist0 Hl Hacc eq_refl eq_refl Hg) as (h' & Hok & Hb & Hw & Hq).
  unfold good in Hg. rewrite forallb_app in Hg. apply andb_prop in Hg as [_ Hg2].
  apply (quiet_gen k id xs2 h' os2 Hok Hb Hw Hg2). apply Hq. right. tauto.
Qed.

(* no panic under responses of the right kind and id; every input is observed *)
Theorem C18_no_panic : forall k id xs os, C18_ok1 k id xs os = true -> good k id xs = true ->
  ~ In OPanic os /\ length os = length xs.
Proof. intros k id xs os Hacc Hg. exact (nopanic_gen k id xs hist0 os Hacc eq_refl eq_refl Hg). Qed.

(* a witness of the panic the code documents: a response of the wrong kind, consumed while the timer waits
   for it.  Which responses panic is class_start / class_clear in Machine.poll_fut; a wrong response that comes
   late is ignored like a right one (MachineInv.step_resolve). *)
Theorem C18_wrong_kind_response_panics :
  exists k id xs, good k id xs = false /\ In OPanic (trun (new_timer k id) xs).
Proof. exists KAfter, 5%N, [IPoll; IFire (RInstant 5); IPoll]. vm_compute. split; [reflexivity|]. right; right; left; reflexivity. Qed.

(* contract lemma of DESIGN 3.3 for the timer future: re-running the task when nothing changed
   produces nothing and changes nothing (run_until_settled is idempotent) *)
Theorem C18_poll_stable : forall t t1 e v, run_task t = (t1, e, v, false) -> run_task t1 = (t1, [], [], false).
Proof. exact run_task_settles. Qed.

(* (1)+(2) composed, for the model: every timer of every run of the model satisfies the clauses *)
Theorem C18_model_timer_clauses : forall c0 xs i k id l,
  (c0 < USIZE)%N -> (N.of_nat (count_starts xs) <= USIZE)%N ->
  timer_view 0 i xs (srun (sys0 c0) xs) = Some (k, id, l) -> good k id (map fst l) = true ->
  let ys := map fst l in let os := map snd l in
  length (events_of os) <= 1 /\
  (forall n j, In (Completed j) (events_of (firstn n os)) -> j = id /\ answered k id (firstn n ys) (firstn n os) = true) /\
  (forall n, In Cleared (events_of (firstn n os)) -> app_cleared (firstn n ys) = true) /\
  (cleared_before_start ys = true -> effects_of os = []) /\
  (effects_of os = [] \/ effects_of os = [start_eff k id] \/ effects_of os = [start_eff k id; EClear id]) /\
  (forall n, has_done (firstn n os) -> events_of (firstn n os) = [] -> req_dropped (firstn n ys) (firstn n os) = true) /\
  ~ In OPanic os.
Proof.
  intros c0 xs i k id l Hc Hn Hv Hg ys os.
  pose proof (C18_each_timer_accepted _ _ _ _ _ _ (C18_model_accepted c0 xs Hc Hn) Hv) as Hacc.
  repeat split.
  - exact (C18_at_most_one_outcome _ _ _ _ Hacc Hg).
  - exact (proj1 (C18_completed_only_if_answered _ _ _ _ Hacc Hg n j H)).
  - exact (proj2 (C18_completed_only_if_answered _ _ _ _ Hacc Hg n j H)).
  - exact (C18_cleared_only_if_cleared _ _ _ _ Hacc Hg).
  - exact (C18_clear_before_start_silent _ _ _ _ Hacc Hg).
  - exact (C18_effects_shape _ _ _ _ Hacc Hg).
  - exact (C18_done_only_if_request_dropped _ _ _ _ Hacc Hg).
  - exact (proj1 (C18_no_panic _ _ _ _ Hacc Hg)).
Qed.

Theorem C18_model_unique_ids : forall c0 xs, (c0 < USIZE)%N -> (N.of_nat (count_starts xs) <= USIZE)%N ->
  NoDup (started_ids xs (srun (sys0 c0) xs)).
Proof. intros c0 xs Hc Hn. exact (C18_unique_ids _ _ (C18_model_accepted c0 xs Hc Hn)). Qed.

(* (3) the legacy capability API (crux_time::Time with the global CLEARED_TIMER_IDS set), hosted
   under Core.  [lok true] is the property as stated, [lok false] tolerates the two listed classes. *)

(* Full statement: false of the faithful model (two witnesses below, both replayed on the code) *)
Definition C18_legacy_full_statement : Prop :=
  forall c0 xs, (c0 < USIZE)%N -> (N.of_nat (count_lstarts xs) <= USIZE)%N ->
  lok true [] xs (lrun (lsys0 c0) xs) = true.

(* for ALL input sequences the model is accepted with the two classes tolerated *)
Theorem C18_legacy_model_accepted_partial : forall c0 xs, (c0 < USIZE)%N -> (N.of_nat (count_lstarts xs) <= USIZE)%N ->
  lok false [] xs (lrun (lsys0 c0) xs) = true.
Proof.
  intros c0 xs Hc Hn. apply (lok_sound_gen c0); [|exact Hn].
  constructor; cbn; [constructor|reflexivity|apply mix_id_0, Hc| |discriminate]. intros [|j] k id h H; discriminate.
Qed.

(* outside the classes (no clear in the update that starts the timer, no clear after the
   outcome) the property as stated holds of the model *)
Theorem C18_legacy_strict_outside_classes_partial : forall c0 xs, (c0 < USIZE)%N -> (N.of_nat (count_lstarts xs) <= USIZE)%N ->
  lclass [] xs (lrun (lsys0 c0) xs) = 0%N -> lok true [] xs (lrun (lsys0 c0) xs) = true.
Proof.
  intros c0 xs Hc Hn Hcl.
  apply (lok_strict_on_complement xs [] _ []); [apply C18_legacy_model_accepted_partial; assumption|constructor|exact Hcl].
Qed.

Theorem C18_legacy_clear_unrequested_refuted :
  exists xs, lok true [] xs (lrun (lsys0 1) xs) = false /\ lclass [] xs (lrun (lsys0 1) xs) = 1%N
             /\ lrun (lsys0 1) xs = [LStarted 1 [EClear 1] [(0, RCleared 1)]].
Proof. exists [LStartClear KAfter]. vm_compute. repeat split. Qed.
Theorem C18_legacy_clear_after_outcome_refuted :
  exists xs, lok true [] xs (lrun (lsys0 1) xs) = false /\ lclass [] xs (lrun (lsys0 1) xs) = 2%N
             /\ lrun (lsys0 1) xs = [LStarted 1 [ENotifyAfter 1] []; LCall 0 [] [(0, RElapsed 1)]; LCall 3 [EClear 1] []].
Proof. exists [LStart KAfter; LFire 0 (RElapsed 1); LClear 0]. vm_compute. repeat split. Qed.

(* every accepted legacy trace (tolerant or strict): unique ids, at most one outcome per timer.
   (That an outcome is Cleared{id} exactly when the app cleared the timer, and otherwise is the
   shell's answer verbatim and only when the shell answered, is the LFire clause of [lok] itself.) *)
Theorem C18_legacy_unique_ids : forall b xs os, lok b [] xs os = true -> NoDup (lstarted_ids os).
Proof. intros b xs os H. exact (lok_ids_nodup b xs [] os H (NoDup_nil N)). Qed.
Theorem C18_legacy_at_most_one_outcome : forall b xs os, lok b [] xs os = true ->
  forall i, count_for i (levents_of os) <= 1.
Proof. intros b xs os H i. pose proof (lok_one_outcome b xs [] os H i) as E. unfold lbudget in E. destruct i; exact E. Qed.

(* (4) "an id no other timer in the PROCESS has": timers started through any interleaving of the
   entry points (command API in a direct Command, command API under Core, legacy capability API)
   draw from one counter, so all ids of a process run are pairwise distinct (below 2^64 timers) *)
Theorem C18_process_wide_unique_ids : forall c0 apis, (N.of_nat (length apis) <= USIZE)%N ->
  C18_ok_mixed (mixed_ids c0 apis) = true /\ length (mixed_ids c0 apis) = length apis.
Proof.
  intros c0 apis Hn. unfold C18_ok_mixed, mixed_ids. split; [|rewrite map_length, seq_length; reflexivity].
  apply nodupb_NoDup, first_ids_nodup. exact Hn.
Qed.

(* non-vacuity: two timers, one cleared while pending (Clear sent, answered, Cleared), one fired
   and cleared before it next ran (Completed, no clear) *)
Example C18_nonvacuous :
  srun (sys0 7) [SStart KAfter; SStart KAt; SOn 0 IPoll; SOn 1 IPoll; SOn 0 IClear; SOn 1 (IFire (RInstant 8));
                 SOn 1 IClear; SOn 0 IPoll; SOn 1 IPoll; SOn 0 (IAnsClr (RCleared 7)); SOn 0 IPoll]
  = [OStarted 7; OStarted 8; OPoll [ENotifyAfter 7] [] false; OPoll [ENotifyAt 8] [] false; ORes 3; ORes 0;
     ORes 3; OPoll [EClear 7] [] false; OPoll [] [Completed 8] true; ORes 0; OPoll [] [Cleared] true]
  /\ timer_view 0 1 [SStart KAfter; SStart KAt; SOn 1 IPoll] [OStarted 7; OStarted 8; OPoll [ENotifyAt 8] [] false]
     = Some (KAt, 8%N, [(IPoll, OPoll [ENotifyAt 8] [] false)]).
Proof. vm_compute. split; reflexivity. Qed.
