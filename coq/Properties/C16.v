(* C16 - HTTP middleware wraps requests in order; redirects are bounded and exact.
   Model: HttpResp/Mw.v (crux_http with the fixes ad19b9f and d7f6296, commits of /repo); proofs:
   HttpResp/MwProofs.v.
   Every statement is for every shell (a function from the request it receives to its answer: every
   redirect graph, loops included), every URL parser / joiner (the url crate is an oracle), every
   request; stacks and attempt limits as quantified in each. *)
From Coq Require Import List NArith Bool String.
From Crux Require Import HttpResp.Resp HttpResp.Mw HttpResp.MwProofs.
Import ListNotations.
Open Scope N_scope.

(* client middleware, then per-request middleware, then the shell, exactly once, and back
   out in reverse; the request the shell sees carries what each middleware added, in that order *)
Theorem C16_order : forall shell R cs rs q ic ir,
  pass_ids cs = Some ic -> pass_ids rs = Some ir ->
  client_send shell R cs q rs =
  (map Enter ic ++ map Enter ir ++ [Shell (pass_request (cs ++ rs) q)] ++ map Exit (rev ir) ++ map Exit (rev ic),
   client_send0 (shell (pass_request (cs ++ rs) q))).
Proof. exact client_send_order. Qed.

(* for EVERY stack (any mix of the five kinds, any length) the enter/exit marks are well nested; said
   with the reference chain as the redirect function, which [C16_code_refines_statement] shows to be the
   code's loop where the limits are u8 *)
Theorem C16_marks_well_nested : forall shell parse_abs join s q,
  balanced (fst (next_run shell (redirect_spec shell parse_abs join) s q)) = true.
Proof. intros. apply next_run_balanced, redirect_spec_shell_only. Qed.

(* the shell is reached exactly once per invocation of the rest of the chain: a stack of
   pass-through / short-circuiting / retrying middleware reaches it [runs s] times (1 per pass-through
   chain, 0 below a short circuit, n+1 under a retry of n) *)
Theorem C16_shell_once_per_run : forall shell R s q k,
  runs s = Some k -> count_shell (fst (next_run shell R s q)) = k.
Proof. exact next_run_shell_count. Qed.

(* From here to [C16_final_url] the statements are of the chain [follow n] (= [redirect_spec]), which is
   Redirect's loop for attempts <= 255 ([C16_code_refines_statement]).
   At most n probes, whatever the graph *)
Theorem C16_bounded : forall shell parse_abs join n q,
  (List.length (fst (follow shell parse_abs join n q)) <= n)%nat.
Proof. exact follow_bounded. Qed.

(* every probe is the original request (method, headers) without its body *)
Theorem C16_probes_are_bodyless_copies : forall shell parse_abs join n q,
  Forall (fun m => exists p, m = Shell p /\ probe_of q p) (fst (follow shell parse_abs join n q)).
Proof. exact follow_probes. Qed.

(* an answer that is not a redirect ends probing: one probe, the request goes on unchanged (stated for the
   first probe of a chain; what follows a redirect is a chain again) *)
Theorem C16_stops_at_first_non_redirect : forall shell parse_abs join k q ra,
  answer shell (clone_req q) = HOk ra -> is_redirect (ra_status ra) = false ->
  follow shell parse_abs join (S k) q = ([Shell (clone_req q)], HOk q).
Proof. intros shell parse_abs join k q ra A E. apply follow_stop, probe_step_stop_iff. eauto. Qed.

(* every probe that is followed by another probe was answered by a redirect, and the next probe goes to
   its Location resolved against the URL of the probe that has just been answered - the CURRENT url -
   or, the redirect having no Location, to the same URL again *)
Theorem C16_relative_current_url : forall shell parse_abs join n q l1 p p' l2 r,
  follow shell parse_abs join n q = (l1 ++ Shell p :: Shell p' :: l2, r) -> hop shell parse_abs join p p'.
Proof. exact follow_consecutive. Qed.

(* the request finally forwarded is the original - method, headers, body - and its URL is that of the
   last probe when that probe was answered by a non-redirect, else what the last redirect leads to
   ([hop]: its Location resolved, or without Location the last probe's URL) *)
Theorem C16_final_request : forall shell parse_abs join n q q',
  snd (follow shell parse_abs join n q) = HOk q' -> same_but_url q q'.
Proof. exact follow_final. Qed.
Theorem C16_final_url : forall shell parse_abs join n q l p q',
  follow shell parse_abs join n q = (l ++ [Shell p], HOk q') ->
  (exists ra, answer shell p = HOk ra /\ is_redirect (ra_status ra) = false /\ q_url q' = q_url p) \/
  hop shell parse_abs join p q'.
Proof. exact follow_last. Qed.

(* the code (Redirect::handle's loop with its u8 counter, inside Next::run / Client::send) is the
   reference semantics, for every stack whose attempt limits are u8 *)
Theorem C16_code_refines_statement : forall shell parse_abs join a cs q rs,
  stack_valid cs = true -> stack_valid rs = true ->
  run_impl shell parse_abs join a cs q rs = run_spec shell parse_abs join a cs q rs.
Proof. exact run_refines. Qed.

(* the command API is the capability API with an empty client stack: so [run16] models command.rs `build`,
   which sends through a Client made on the spot, and the equation holds by definition; send_async
   produces the same log *)
Theorem C16_all_apis : forall shell R cs q rs,
  run16 shell R ACmdBuild cs q rs = run16 shell R ACapSend [] q rs /\
  g_log (run16 shell R ACapAsync cs q rs) = g_log (run16 shell R ACapSend cs q rs).
Proof. split; [reflexivity|apply async_same_log]. Qed.

(* under pass-through middleware (none at all included) the app's event is the C15
   classification of the shell's answer to the one request that reached it *)
Theorem C16_outcome_is_C15_outcome : forall shell R mime_charset decode json cs rs q ic ir,
  pass_ids cs = Some ic -> pass_ids rs = Some ir ->
  g_events (run16 shell R ACapSend cs q rs) =
  t_events (run mime_charset decode json ACap XBytes (shell (pass_request (cs ++ rs) q))) /\
  g_panicked (run16 shell R ACapSend cs q rs) =
  t_panicked (run mime_charset decode json ACap XBytes (shell (pass_request (cs ++ rs) q))).
Proof.
  intros shell R mc d j cs rs q ic ir Hc Hr. unfold run16. rewrite (client_send_order shell R cs rs q ic ir Hc Hr).
  unfold run, run_cap. destruct (client_send0 _) as [ra | e |]; simpl; try (split; reflexivity).
  unfold finish16, emit. destruct (response_new ra); split; reflexivity.
Qed.

(* the trace predicate evaluated on the implementation holds of the model, for every case *)
Theorem C16_ok_holds_of_model : forall c,
  stack_valid (c_client c) = true -> stack_valid (c_req c) = true ->
  C16_ok c (run_impl (tbl_shell c) (tbl_parse c) (tbl_join c) (c_api c) (c_client c) (c_request c) (c_req c)) = true.
Proof. intros c. apply model_ok16. Qed.

(* non-vacuity: two relative redirects in a row (/x/y -"z/w"-> /x/z/w -"q"-> must
   reach /x/z/q; the code before ad19b9f went to /x/q), with a toy joiner that knows these two joins *)
Example C16_nonvacuous :
  let u := fun s => str s in
  let shell := fun q : request =>
    if bytes_eqb (q_url q) (str "/x/y") then Rsp 302 [Hd (str "location") (str "z/w")] []
    else if bytes_eqb (q_url q) (str "/x/z/w") then Rsp 302 [Hd (str "Location") (str "q")] []
    else Rsp 200 [] (q_url q) in
  let join := fun cur loc : bytes =>
    if bytes_eqb cur (str "/x/y") && bytes_eqb loc (str "z/w") then inl (str "/x/z/w")
    else if bytes_eqb cur (str "/x/z/w") && bytes_eqb loc (str "q") then inl (str "/x/z/q")
    else inr (str "?") in
  let q := Rq (str "POST") (str "/x/y") [] (str "payload") in
  run_impl shell (fun _ => URel) join ACmdBuild [] q [MPass 1 None; MRedirect 3; MPass 2 None] =
  T16 [Enter 1; Shell (Rq (str "POST") (str "/x/y") [] []); Shell (Rq (str "POST") (str "/x/z/w") [] []);
       Shell (Rq (str "POST") (str "/x/z/q") [] []); Enter 2; Shell (Rq (str "POST") (str "/x/z/q") [] (str "payload")); Exit 2; Exit 1]
      [OkR 200 None [] (Some (BBytes (str "/x/z/q")))] false.
Proof. vm_compute. reflexivity. Qed.
