(* C10 - generated foreign types describe the actual wire format.

   [Registry_kvapp], [Registry_zoo], [Registry_malapp], [Registry_protocol] are regenerated on every check from the
   registry the real `crux_core::typegen::TypeGen` traces (coq/Gen/, harness/src/bin/wire_registry.rs);
   [encode]/[decode] are the schema-directed model of the Bridge's bincode configuration
   (coq/Wire/Codec.v).  That Rust's derived Serialize/Deserialize impls agree with [encode]/[decode]
   on the traced schema is the correspondence part of the check (engines/wire_eng.py). *)
From Coq Require Import String List ZArith NArith Bool.
From Crux Require Import Wire.Codec Wire.CodecProofs Wire.CodecFlat Wire.Cases Wire.CasesProofs.
From Crux Require Import Gen.Registry_kvapp Gen.Registry_zoo Gen.Registry_malapp Gen.Registry_protocol.
Import ListNotations.
Local Open Scope string_scope.
Local Open Scope list_scope.

(* Every value of every registered type: what Rust writes for it is read back as that value, and
   whatever follows it is left untouched (trailing bytes are allowed by the Bridge's options). *)
Theorem C10_roundtrip : forall (reg : registry) (f : format) (v : value) (rest : list byte),
  has_type reg f v -> decode reg f (encode reg f v ++ rest) = Some (v, rest).
Proof. exact roundtrip. Qed.

(* Every accepted input is the encoding of the value it is read as - the one Rust writes for that
   value - followed by exactly the bytes that are reported as left over; the value is well-typed. *)
Theorem C10_canonical : forall (reg : registry) (f : format) (b : list byte) (v : value) (rest : list byte),
  decode reg f b = Some (v, rest) -> b = encode reg f v ++ rest /\ has_type reg f v.
Proof. exact canonical. Qed.

(* Two different values never share an encoding, and no encoding is a proper prefix of another:
   a shell and the core can never disagree about which value a byte string denotes. *)
Theorem C10_encode_injective : forall reg f v1 v2,
  has_type reg f v1 -> has_type reg f v2 -> encode reg f v1 = encode reg f v2 -> v1 = v2.
Proof. exact encode_injective. Qed.

Theorem C10_prefix_free : forall reg f v1 v2 rest,
  has_type reg f v1 -> has_type reg f v2 -> encode reg f v1 = encode reg f v2 ++ rest -> v1 = v2 /\ rest = [].
Proof. exact decode_prefix_free. Qed.

(* A Registry is a flat map from names to containers; the model reads a name in the REST of the
   dependency-ordered list.  For a well-formed registry the two readings coincide: the codec of a name
   is the codec of the container registered under it with every inner name read globally again -
   pointwise equal typing, encoding and decoding. *)
Theorem C10_flat_resolution : forall reg, wf_registry reg = true -> forall n c, lookup reg n = Some c ->
  codec_eq (rcodec reg n) (ccodec (rcodec reg) c).
Proof.
  apply (wf_lookup_ind (fun reg n c => codec_eq (rcodec reg n) (ccodec (rcodec reg) c)));
    [intros m c reg Hm Hc|intros m c0 reg n c Hm Hc Hne IH]; cbn [rcodec].
  - rewrite String.eqb_refl. now apply ccodec_ext, rcodec_tail.
  - apply String.eqb_neq in Hne. rewrite Hne. eapply codec_eq_trans; [exact IH|]. now apply ccodec_ext, rcodec_tail.
Qed.

Theorem C10_unknown_name_empty : forall reg n, lookup reg n = None -> forall v, has_type_b reg (FTypeName n) v = false.
Proof.
  intros reg n L v. unfold has_type_b. cbn [fcodec]. induction reg as [|[m c] reg IH]; cbn [lookup rcodec] in *; [reflexivity|].
  destruct (String.eqb n m); [discriminate|exact (IH L)].
Qed.

(* The regenerated registries are closed, acyclic (dependency-ordered, no name defined twice) and
   their enums are numbered 0,1,2,... : proofs about finite regenerated objects, redone on every run. *)
Theorem C10_wf_kvapp : wf_registry Registry_kvapp = true.
Proof. vm_compute. reflexivity. Qed.
Theorem C10_wf_zoo : wf_registry Registry_zoo = true.
Proof. vm_compute. reflexivity. Qed.
Theorem C10_wf_malapp : wf_registry Registry_malapp = true.
Proof. vm_compute. reflexivity. Qed.
Theorem C10_wf_protocol : wf_registry Registry_protocol = true.
Proof. vm_compute. reflexivity. Qed.

(* None of the protocol types shipped in the repository contains a map (a Rust HashMap writes its
   entries in iteration order, so for maps C10_canonical would only hold up to entry order on the Rust
   side).  The zoo test app has one on purpose. *)
Theorem C10_no_map_kvapp : registry_has_map Registry_kvapp = false.
Proof. vm_compute. reflexivity. Qed.
Theorem C10_no_map_protocol : registry_has_map Registry_protocol = false.
Proof. vm_compute. reflexivity. Qed.

(* The trace predicates evaluated on the implementation's observations hold of the model. *)
Theorem C10_ok_b_model : forall reg f v, has_type reg f v -> verdict_b reg f (encode reg f v) = 0%N.
Proof. intros reg f v H. unfold verdict_b, C10_ok_b. now rewrite (roundtrip_nil _ _ _ H), bytes_eqb_refl. Qed.

Theorem C10_ok_a_model : forall reg f v, has_type reg f v ->
  let hb := encode reg f v in
  match model_a reg f hb with (acc, strict, same) => verdict_a reg f hb acc strict same = 0%N end.
Proof.
  intros reg f v H hb. unfold model_a, verdict_a, C10_ok_a. subst hb.
  now rewrite (roundtrip_nil _ _ _ H), app_nil_r, bytes_eqb_refl.
Qed.

Theorem C10_ok_c_model : forall reg f v rest, has_type reg f v -> verdict_c reg f (encode reg f v ++ rest) true = 0%N.
Proof. intros reg f v rest H. unfold verdict_c. now rewrite (roundtrip reg f v rest H). Qed.

(* ... and a passing verdict on Rust-written bytes certifies them *)
Theorem C10_verdict_b_sound : forall reg f b,
  verdict_b reg f b = 0%N -> exists v, has_type reg f v /\ b = encode reg f v.
Proof.
  intros reg f b. unfold verdict_b, C10_ok_b. destruct (decode reg f b) as [[v [|]]|] eqn:E; try discriminate.
  intros _. apply canonical in E as [Eb Ht]. exists v. now rewrite app_nil_r in Eb.
Qed.

(* non-vacuity (on the harness' own test app, so that the example does not depend on how a crux type
   happens to be declared): a bridge request carrying an Ask with a non-ASCII text is well-typed, its
   encoding is the expected 23 bytes, an invalid UTF-8 text or an unknown variant is not a value *)
Definition C10_sample : value := VList [VInt 7; VEnum 0 (VList [VInt 9; VB "6bc3a9"])].
Example C10_nonvacuous :
  has_type Registry_malapp (FTypeName "Request") C10_sample /\
  encode Registry_malapp (FTypeName "Request") C10_sample =
    bytes_of_hex ("07000000" ++ "00000000" ++ "09000000" ++ "0300000000000000" ++ "6bc3a9")%string /\
  has_type_b Registry_malapp (FTypeName "Request") (VList [VInt 7; VEnum 0 (VList [VInt 9; VB "6bc3"])]) = false /\
  has_type_b Registry_malapp (FTypeName "Request") (VList [VInt 7; VEnum 9 VUnit]) = false.
Proof. vm_compute. repeat split. Qed.
