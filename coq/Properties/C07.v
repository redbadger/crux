(* C07 - a command is done exactly when nothing more can happen. *)
From Coq Require Import List Arith Bool.
From Crux Require Import Rt.Lang Rt.Rt Rt.Host Rt.Check Rt.Frame Rt.Props Rt.HostProps Rt.Evict.
Import ListNotations.

(* The whole property, stated and not proved (the theorems below prove parts of it): at every settled state of every
   program and schedule, (1) a task was removed only if it finished, was cancelled, or no live cell of
   its wait-set can ever wake it again, (2) every retained task of a non-aborted command can still be
   woken, (3) is_done <-> no task and no pending output, (4) a command whose tasks wait only on shell
   requests is done once all have been resolved or dropped. *)
Definition C07_full_statement : Prop :=
  forall fuel c acts os, direct fuel c acts = Some os ->
    C07_done_sound os = true /\
    (forall drained, C07_ok (false, drained, c, [], acts, os) = true).

(* (3), soundness half, for every program and every schedule: whenever is_done() answers true the
   command holds no task (and, by definition of is_done, no pending output). *)
Theorem C07_done_implies_no_task_partial : forall fuel c acts os,
  direct fuel c acts = Some os -> C07_done_sound os = true.
Proof. intros fuel c acts os. unfold direct. destruct (new_cmd _ _ _ _ _ _) as [top H]. apply drun_done_sound. Qed.

(* run_until_settled really settles: when it returns for a command that is not aborted, that
   command's ready queue and spawn queue are both empty (so "nothing more can happen" is judged on a
   state in which every woken task has been polled), for every fuel, heap and command id. *)
Theorem C07_settled_queues_empty : forall fuel cid H H',
  was_aborted cid H = false -> settle fuel cid H = Some H' ->
  c_ready (gcmd cid H') = [] /\ c_spawnq (gcmd cid H') = [].
Proof. exact settle_quiescent. Qed.

(* Eviction is decided exactly by "not woken during the poll and no cell holds this poll's waker":
   stated so that the model's rule cannot drift from Command::run_task. *)
Theorem C07_evict_rule : forall F cid slot H t g H2 fs',
  slab_get slot (gcmd cid H) = Some t ->
  tf_abort (gtf (t_uid t) H) || (Nat.eqb (t_uid t) (c_task0 (gcmd cid H)) && was_aborted cid H) = false ->
  g = length (woken H) ->
  rpoll F cid (WCmd cid slot g) (t_fs t)
        (mkH (chans H) (tfl H) (cmds H) (woken H ++ [false]) (xready H) (aborted H) (log H) (hout H)) = Some (Pend fs', H2) ->
  let H3 := ucmd cid (slab_set slot (mkT (t_uid t) fs')) H2 in
  rrun_task (step_funs F) cid slot H =
    Some (if getd false g (woken H3) || holds g H3 then (Suspended, H3) else (Cancelled, note B_Evict H3)).
Proof.
  intros F cid slot H t g H2 fs' Es Ea Eg Ep. cbn [step_funs rrun_task]. unfold run_task_body.
  rewrite Es, Ea. subst g. rewrite Ep. cbv zeta.
  destruct (getd false (length (woken H)) _ || holds _ _); reflexivity.
Qed.

(* (1) Eviction soundness, for every fuel, heap, command and task: when run_task discards a task as
   unwakeable (Cancelled) the task is blocked on a one-shot request whose sender is gone, on a join!/
   select! all of whose requests are gone or already answered, or is a hosting task (that leaf is
   excluded by C07_evict_sound below, under the order invariant) - never on a stream, a join handle, a
   pending self-wake or a request that can still be answered.  Rests on poll_registers: a Pending poll
   leaves the poll's waker registered in every open cell of the future's wait-set (or has set the woken
   flag). *)
Theorem C07_poll_registers : forall fuel c w fs H fs' H',
  poll fuel c w fs H = Some (Pend fs', H') -> post w fs' H'.
Proof. intros fuel. exact (poll_registers fuel). Qed.
Theorem C07_evict_sound_partial : forall fuel cid slot H H',
  run_task (S fuel) cid slot H = Some (Cancelled, H') ->
  exists t, slab_get slot (gcmd cid H') = Some t /\ evictable (t_fs t).
Proof. exact evict_sound. Qed.

(* (1) in full, the hosting leaf included (coq/Rt/EvictHost.v): run_task never discards a task that HOSTS a command.
   Stream::poll_next registers the host's waker in the hosted command's cell before anything runs; the only
   thing that empties the cell is a wake of one of the hosted command's tasks, which wakes the registered waker,
   and a CommandWaker marks itself woken first - so after a Pending poll the cell still holds this poll's waker
   (a clone survives) or the waker was woken, and the eviction rule answers Suspended.  What IS evicted is
   blocked on one-shot requests whose sender is gone, and on nothing else.  The one assumption is the ORDER
   invariant of the heap (a task only hosts commands created after its own command, and a command's cell only holds
   a waker of a command created earlier: so settling a command polls only commands above it, and never overwrites
   its own cell); it is proved to hold at the start of every run and to be preserved by every action of the host
   and every step of the runtime, for every program, schedule and fuel. *)
From Crux Require Rt.EvictHost.
Theorem C07_evict_sound : forall fuel cid slot H H',
  EvictHost.OrdH H -> run_task (S fuel) cid slot H = Some (Cancelled, H') ->
  exists t, slab_get slot (gcmd cid H') = Some t /\ EvictHost.evictable_strict (t_fs t).
Proof. exact EvictHost.evict_sound_full. Qed.
Theorem C07_hosting_poll_keeps_its_waker_registered : forall fuel c w fs H fs' H' x me mv k,
  c < length (cmds H) -> EvictHost.host_gt c fs -> EvictHost.waker_in c w -> EvictHost.OrdH H ->
  poll fuel c w fs H = Some (Pend fs', H') -> f_leaf fs' = LHost x me mv k ->
  c < x /\ (c_atomic (gcmd x H') = Some w \/ EvictHost.wokenx w H') /\ EvictHost.OrdH H'.
Proof. exact EvictHost.poll_registers_host. Qed.
Theorem C07_order_invariant_at_start : forall c,
  EvictHost.OrdH (snd (new_cmd (cx_name (compile c)) None [] (cx_main (compile c)) (cx_extra (compile c)) H0)).
Proof.
  intros c. destruct (new_cmd _ _ _ _ _ H0) as [top H] eqn:E.
  exact (EvictHost.OrdH_new_cmd _ _ _ _ _ _ _ _ E EvictHost.OrdH_H0).
Qed.
Theorem C07_order_invariant_preserved : forall fuel top st st',
  EvictHost.dreach fuel top st st' -> EvictHost.OrdH (d_H st) -> EvictHost.OrdH (d_H st').
Proof. exact EvictHost.dreach_OrdH. Qed.
Theorem C07_order_invariant_preserved_by_settle : forall fuel c H H',
  settle fuel c H = Some H' -> EvictHost.OrdH H -> EvictHost.OrdH H'.
Proof. exact EvictHost.OrdH_settle. Qed.
(* ... and of every state an app under a CORE can reach (any app, any history of shell calls, any fuel): through
   Stream::poll_next on a top-level command, QueuingExecutor::run_task / run_all, CommandSpawner::spawn, the event
   loop, resolve and drop.  So eviction soundness above applies to every state of a running core. *)
From Crux Require Rt.CoreOrd.
Theorem C07_order_invariant_under_a_core : forall FUEL hs k,
  CoreOrd.creach FUEL hs (core0) k -> EvictHost.OrdH (k_H k).
Proof. exact CoreOrd.core_reachable_OrdH. Qed.
Theorem C07_order_invariant_preserved_by_core_call : forall FUEL hs a k o k',
  cstep FUEL hs a k = Some (o, k') -> EvictHost.OrdH (k_H k) -> EvictHost.OrdH (k_H k').
Proof. exact CoreOrd.cstep_OrdH. Qed.

(* Done is stable, on the runtime model: a command that is quiet (not aborted, ready and spawn queues empty) is not
   changed AT ALL by run_until_settled; so once is_done() has answered true, every further is_done() / effects() /
   events() finds the same heap and gives the same answers, and a host polling it is told Ready(None) at once - until
   something is spawned on it or one of its wakers fires.  For every heap and every fuel >= 2, >= 3 for the host's
   poll_next (Rt/DoneStable.v). *)
From Crux Require Rt.DoneStable.
Theorem C07_settling_a_quiet_command_changes_nothing : forall f x H,
  x < length (cmds H) -> was_aborted x H = false -> c_ready (gcmd x H) = [] -> c_spawnq (gcmd x H) = [] ->
  settle (S (S f)) x H = Some H.
Proof. exact DoneStable.settle_of_a_quiet_command_changes_nothing. Qed.
Theorem C07_done_is_stable : forall f x H,
  x < length (cmds H) -> was_aborted x H = false -> c_ready (gcmd x H) = [] -> c_spawnq (gcmd x H) = [] ->
  c_eff (gcmd x H) = [] -> c_evs (gcmd x H) = [] -> c_len (gcmd x H) = 0 ->
  DoneStable.is_done_model (S (S f)) x H = Some (true, H).
Proof.
  intros f x H L A Er Es Ef Ev El. unfold DoneStable.is_done_model.
  rewrite (DoneStable.settle_of_a_quiet_command_changes_nothing f x H L A Er Es). cbv zeta. rewrite Ef, Ev, El. reflexivity.
Qed.
Theorem C07_done_command_reports_done_to_its_host : forall f x w H,
  x < length (cmds H) -> was_aborted x H = false -> c_ready (gcmd x H) = [] -> c_spawnq (gcmd x H) = [] ->
  c_eff (gcmd x H) = [] -> c_evs (gcmd x H) = [] -> c_len (gcmd x H) = 0 ->
  poll_next (S (S (S f))) x w H = Some (PNDone, ucmd x (set_atomic (Some w)) H).
Proof. exact DoneStable.done_command_reports_done_to_its_host. Qed.

(* A finished task stays finished and a task that is gone stays gone, through every step of the runtime on
   any command (so a JoinHandle that has once seen its task finish, or its task dropped, is never blocked
   again), for every fuel and heap. *)
From Crux Require Rt.Perm.
Theorem C07_finished_stays_finished : forall fuel cid H H' u,
  settle fuel cid H = Some H' -> tf_fin (gtf u H) = true -> tf_fin (gtf u H') = true.
Proof. intros fuel cid H H' u E. exact (Perm.pm_fin _ _ (Perm.perm_settle fuel cid H H' E) u). Qed.
Theorem C07_gone_task_stays_gone : forall fuel cid H H' u,
  settle fuel cid H = Some H' -> u < length (tfl H) -> tf_alive (gtf u H) = false -> tf_alive (gtf u H') = false.
Proof. intros fuel cid H H' u E. exact (Perm.pm_gone _ _ (Perm.perm_settle fuel cid H H' E) u). Qed.

(* On the reference semantics (coq/Rt/Ref.v, with which the implementation is compared step by step on every
   cancellation-free generated case): a command that reports done has no strand left, takes no later answer,
   is not changed by any later drop, and running it again produces nothing - done is final. *)
From Crux Require Rt.Ref Rt.RefCoreProps Rt.RefQuiesce.
Theorem C07_ref_done_is_final : forall c, Ref.rdone c = true ->
  RefCoreProps.strands_rc c = [] /\
  (forall rid v, Ref.deliver rid v c = (false, c)) /\
  (forall rid, Ref.dropreq rid c = c) /\
  (forall g en n, RefQuiesce.rdepth c <= g -> Ref.run g en c n = Some (c, n, Ref.ro0)).
Proof. exact RefQuiesce.done_is_final. Qed.

Example C07_nonvacuous :
  direct FUEL0 (c_req_send 1 0 9) [AEffects; AIsDone; ADropReq 1 0 0; AIsDone]
  = Some [OEffects [mkOE 1 0 [] KOnce]; ODone false 1; ONone; ODone true 0].
Proof. vm_compute. reflexivity. Qed.
