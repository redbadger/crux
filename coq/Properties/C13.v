(* C13 - finished work is released.

   Registry (bridge/registry.rs over slab 0.4.9): coq/Bridge/Bridge.v, for every app and codec (Section variables).
   Tasks / consumers (command/executor.rs eviction, command/context.rs channels, legacy shell_request/shell_stream):
   the request-layer heap coq/Bridge/Resolve.v.  Legacy timers (crux_time/src/lib.rs CLEARED_TIMER_IDS): Timer.v.
   The full statement "resource use is bounded by the outstanding work" is FALSE of the faithful models in four
   places; each has a refutation witness below (replayed on the real code by ./check C13, which prints a
   KNOWN-FINDING line per class) and the theorems state exactly what does hold.                                  *)
From Coq Require Import List Arith Bool ZArith NArith Lia.
From Crux Require Import Base.Res Bridge.Slab Bridge.SlabProofs Bridge.Bridge Bridge.BridgeProofs Bridge.RegistryProofs
                         Bridge.ReleaseProofs Bridge.Resolve Bridge.ResolveProofs Bridge.HeapReleaseProofs
                         Bridge.Timer Bridge.TimerProofs Bridge.Twin Bridge.Release.
Import ListNotations.
Close Scope N_scope.
Open Scope nat_scope.

Section C13_registry.
Variables (cstate event op value view handle B : Type).
Notation eff := (eff op handle).
Notation bytes := (list B).
Variable core_event : cstate -> event -> cstate * list eff.
Variable core_process : cstate -> cstate * list eff.
Variable core_call : cstate -> handle -> value -> cstate * bool.
Variable core_drop : cstate -> handle -> cstate.
Variable core_view : cstate -> view.
Variable dec_event : bytes -> option (event * bytes).
Variable dec_out : op -> bytes -> option (value * bytes).
Variable enc_reqs : list (nat * op) -> bytes.
Variable enc_view : view -> bytes.
Notation bridge_step := (bridge_step cstate event op value view handle B core_event core_process core_call
                                     core_drop core_view dec_event dec_out enc_reqs enc_view).
Notation bridge_run := (bridge_run cstate event op value view handle B core_event core_process core_call
                                   core_drop core_view dec_event dec_out enc_reqs enc_view).

(* Full statement (false, see the refutations): at every state the registry holds no more entries than there
   are requests the shell could still resolve. *)
Definition C13_registry_full_statement : Prop :=
  forall b t, R cstate op handle b t ->
    length (slab_iter (b_reg b)) <= length (held_resolvable handle (t_held t)).

(* Proved part: the one-shot and stream entries (everything that is not a notification's entry) are in
   one-to-one correspondence with distinct requests the typed shell still holds un-consumed; so their number
   is bounded by the number of such requests - whatever the length of the history ([R] holds along every run:
   BridgeProofs.step_image). *)
Theorem C13_registry_bound_partial : forall b t, R cstate op handle b t ->
  length (resolvable_entries op handle (b_reg b)) <= length (held_resolvable handle (t_held t)).
Proof. apply registry_bound. Qed.

(* Any response addressed to a one-shot's id - delivered, or undecodable - releases its entry: the id is free
   afterwards, or already reissued to a request created in that very call. *)
Theorem C13_once_entry_released : forall b id data b' r e,
  BInv cstate op handle b -> slab_get (b_reg b) id = Some e -> r_kind e = KOnce ->
  bridge_step b (BResp id data) = (b', r) -> is_panic r = false ->
  slab_get (b_reg b') id = None \/ exists e', slab_get (b_reg b') id = Some e' /\ b_seq b <= r_seq e'.
Proof. intros b id data b' r e HB. apply once_entry_released, HB. Qed.

(* What is never released (the shape of the two registry findings): a stream's entry survives every call for
   ever, including FinishedMany answers; a notification's entry survives until the shell responds to it. *)
Theorem C13_many_entry_kept_for_ever : forall is b id e,
  BInv cstate op handle b -> slab_get (b_reg b) id = Some e -> r_kind e = KMany ->
  slab_get (b_reg (snd (bridge_run b is))) id = Some e.
Proof. intros is b id e HB Hg Hk. apply entry_kept_run; auto. Qed.

Theorem C13_never_entry_kept_until_addressed : forall is b id e,
  BInv cstate op handle b -> slab_get (b_reg b) id = Some e ->
  (forall data, ~ In (BResp id data) is) ->
  slab_get (b_reg (snd (bridge_run b is))) id = Some e.
Proof. intros is b id e HB Hg Hno. apply entry_kept_run; auto. Qed.
End C13_registry.

(* Slab storage is reused: an insertion extends the entries vector only when every slot is occupied, so the
   vector's length is the peak occupancy, not the number of insertions. *)
Theorem C13_slab_reuse : forall (V : Type) (s : slab V) v k s', wf s -> slab_insert s v = Ok (k, s') ->
  len s < length (entries s) -> length (entries s') = length (entries s) /\ k < length (entries s).
Proof. intros V. exact (@insert_reuses_vacant V). Qed.

(* Refutation 1 (class registry_keeps_notifications): five events that each only render; the registry then
   holds five entries, none of which can ever be resolved. *)
Definition five_renders : rtables :=
  mkTables (map (fun k => (k, [mkEff (0%N, 0%N) KNever (N.to_nat k)])) [0; 1; 2; 3; 4]%N) [] [] [[]; []; []; []; []; []].
Theorem C13_registry_notifications_refuted :
  exists calls, calls = m_twin_run five_renders (map (fun k => BEvent [0%N; k]) [0; 1; 2; 3; 4]%N) /\
    match rev calls with
    | c :: _ => snap_of (c_after _ _ _ _ _ c) = [(0, KNever); (1, KNever); (2, KNever); (3, KNever); (4, KNever)] /\
                resolvable_entries aop nat (b_reg (c_after _ _ _ _ _ c)) = []
    | [] => False
    end.
Proof. eexists. split; [reflexivity|]. vm_compute. split; reflexivity. Qed.

(* Refutation 2 (class registry_keeps_finished_streams): a stream whose consumer has ended answers FinishedMany
   and its entry is still registered. *)
Definition finished_stream : rtables :=
  mkTables [(0%N, [mkEff (5%N, 0%N) KMany 0])] [] [(0, 1%N, false)] [[]; []].
Theorem C13_registry_finished_stream_refuted :
  exists calls, calls = m_twin_run finished_stream [BEvent [0%N; 0%N]; BResp 0 [0%N; 1%N]] /\
    map (fun c => c_out _ _ _ _ _ c) calls = [Ok (t_enc_reqs [(0, (5%N, 0%N))]); Err E_FinishedMany] /\
    match rev calls with c :: _ => snap_of (c_after _ _ _ _ _ c) = [(0, KMany)] | [] => False end.
Proof. eexists. split; [reflexivity|]. vm_compute. split; reflexivity. Qed.

(* The invariants hold at every reachable state of the request layer. *)
Theorem C13_heap_invariants_reachable : forall acts,
  Inv (fst (run heap_empty acts)) /\ TxInv (fst (run heap_empty acts)).
Proof. intros acts. split; [apply run_Inv; apply Inv_empty|apply run_TxInv; [apply Inv_empty|apply TxInv_empty]]. Qed.

(* dropping a command, or aborting it and letting it run once, releases every consumer: none is alive, nothing
   stays buffered, no continuation event is produced *)
Theorem C13_drop_releases : forall h,
  live_tasks (fst (step h ADropAll)) = 0 /\
  forall c ch, nth_error (h_chans (fst (step h ADropAll))) c = Some ch -> ch_rx ch = false /\ ch_buf ch = [].
Proof.
  intros h. destruct (kill_all_released (h_chans h)) as [E H]. unfold live_tasks, live_chans. simpl. rewrite E. auto.
Qed.

Theorem C13_abort_releases : forall h,
  let h' := fst (step (fst (step h AAbort)) APoll) in
  live_tasks h' = 0 /\ o_events (snd (step (fst (step h AAbort)) APoll)) = [] /\
  forall c ch, nth_error (h_chans h') c = Some ch -> ch_rx ch = false /\ ch_buf ch = [].
Proof.
  intros h. destruct (kill_all_released (h_chans h)) as [E H]. unfold live_tasks, live_chans. simpl. rewrite E. auto.
Qed.

(* a consumer that has taken its last value is gone, with whatever was still buffered for it *)
Theorem C13_finished_consumer_released : forall c l, ch_rx c = true -> ch_limit c = Some l ->
  l <= ch_taken c + length (ch_buf c) ->
  ch_rx (fst (consume c)) = false /\ ch_buf (fst (consume c)) = [].
Proof.
  intros c l Hrx Hl Hle. rewrite consume_alive by exact Hrx. simpl.
  assert (He : ends c = true).
  { unfold ends, room. rewrite Hl. apply orb_true_iff. left. apply Nat.leb_le. rewrite firstn_length. lia. }
  rewrite He. auto.
Qed.

(* released is for ever: whatever happens later, the consumer stays gone and nothing more is accepted for it
   or delivered to it (so senders the shell still holds can no longer deliver) *)
Theorem C13_released_for_ever : forall acts h c ch,
  nth_error (h_chans h) c = Some ch -> ch_rx ch = false ->
  exists ch', nth_error (h_chans (fst (run h acts))) c = Some ch' /\ ch_rx ch' = false /\
              ch_del ch' = ch_del ch /\ ch_acc ch' = ch_acc ch.
Proof. exact rx_dead_stable. Qed.

(* Full statement for tasks (false of legacy consumers, see refutation 3): once the tasks have run, every live
   consumer waits on a request whose callback still exists - live tasks are bounded by the requests that can
   still be resolved, at every reachable state. *)
Definition C13_tasks_full_statement : Prop :=
  forall h c ch', Inv h -> TxInv h -> h_aborted h = false ->
    nth_error (h_chans (fst (step h APoll))) c = Some ch' -> ch_rx ch' = true ->
    exists rid q, nth_error (h_reqs (fst (step h APoll))) rid = Some q /\ closure_of (q_res q) = Some c.

(* Proved part: so it is for every consumer of the command API, which moreover has nothing buffered and waits
   on a request issued by its own task. *)
Theorem C13_live_tasks_bounded_partial : forall h c ch',
  Inv h -> TxInv h -> h_aborted h = false ->
  nth_error (h_chans (fst (step h APoll))) c = Some ch' -> ch_rx ch' = true -> ch_legacy ch' = false ->
  ch_buf ch' = [] /\
  exists rid q, nth_error (h_reqs (fst (step h APoll))) rid = Some q /\ closure_of (q_res q) = Some c /\
                q_owner q = ch_owner ch'.
Proof.
  intros h c ch' HI HT Hab Hc' Hrx' Hleg'.
  destruct (survivor_after_poll h c ch' HI HT Hab Hc' Hrx') as [Hbuf [H|[Hl _]]]; [auto|congruence].
Qed.

(* The same bound in numbers - this is the clause [bound] of Release.release_step, evaluated on the
   implementation's drop counters, proved here of the model: once the tasks have run, live consumers <= requests
   that can still be resolved + legacy consumers that can never finish (the known class; 0 for the command API). *)
Theorem C13_live_tasks_count_bound : forall h, Inv h -> TxInv h -> h_aborted h = false ->
  let h' := fst (step h APoll) in
  live_count h' <= outstanding h' + legacy_stuck h'.
Proof. exact live_bound_after_poll. Qed.

(* Refutation 3 (class legacy_task_kept_after_unresolvable_request): a legacy-capability task whose request the
   shell dropped is still alive after the tasks have run, and no request can ever wake it. *)
Theorem C13_legacy_task_refuted :
  exists h, h = fst (run heap_empty [AIssue 0 KOnce None true; ADropReq 0; APoll]) /\
    Inv h /\ TxInv h /\ live_tasks h = 1 /\ outstanding h = 0 /\ legacy_stuck h = 1.
Proof.
  eexists. split; [reflexivity|]. split; [apply run_Inv, Inv_empty|].
  split; [apply run_TxInv; [apply Inv_empty|apply TxInv_empty]|]. vm_compute. auto.
Qed.

(* ================================================================== the command runtime model (coq/Rt) *)
(* In the function-for-function model of command/executor.rs, stream.rs and context.rs (coq/Rt/Rt.v): dropping a
   Command value releases it whatever the drop glue of its tasks does meanwhile, and what has been released
   stays released through every later step of the runtime on any command at any nesting level - a dropped
   Command stays dropped, the flag of a task that is gone stays so, a closed receiver stays closed (so a
   sender the shell still holds can never deliver into released work).  For every fuel and every heap
   (coq/Rt/Perm.v, the frame principle instantiated with "what only ever moves one way"). *)
From Crux Require Rt.Rt Rt.Perm.
Theorem C13_rt_dropping_a_command_releases_it : forall f cid H,
  cid < length (Rt.cmds H) -> Rt.c_alive (Rt.gcmd cid (Rt.drop_cmd (S f) cid H)) = false.
Proof. exact Perm.drop_cmd_dead. Qed.
(* One task: what the executor does to a task that completed, was aborted or was evicted (tasks.remove(id);
   finished.store(true); wake_join_handles(); drop(task)) releases it - its slab slot is vacant, its flag says finished
   and gone - for every heap; the wakes of the join waiters and the drop of its future never put anything back into any
   command's task table (Rt/TaskRelease.v: they leave every table alone or empty it). *)
From Crux Require Rt.TaskRelease.
Theorem C13_rt_finished_task_is_released : forall cid s t H,
  Rt.slab_get s (Rt.gcmd cid (Rt.finish_task cid s t H)) = None /\
  Rt.tf_alive (Rt.gtf (Rt.t_uid t) (Rt.finish_task cid s t H)) = false /\
  Rt.tf_fin (Rt.gtf (Rt.t_uid t) (Rt.finish_task cid s t H)) = true.
Proof. exact TaskRelease.finish_task_releases. Qed.
(* ... and a finished top-level command is released by the executor: its task slot is freed and the Command dropped *)
From Crux Require Rt.Host Rt.CoreOrd.
Theorem C13_rt_finished_command_is_released_by_the_executor : forall FUEL f q k cid H1,
  Host.xget q (Host.k_slab k) = Some cid -> Rt.poll_next FUEL cid (Rt.WExec q) (Host.k_H k) = Some (Rt.PNDone, H1) ->
  cid < length (Rt.cmds H1) ->
  exists k', Host.xrun_task FUEL (S f) q k = Some k' /\ Host.xget q (Host.k_slab k') = None /\
             Rt.c_alive (Rt.gcmd cid (Host.k_H k')) = false.
Proof. exact CoreOrd.xrun_task_done_releases. Qed.
Theorem C13_rt_released_stays_released : forall fuel cid H H',
  Rt.settle fuel cid H = Some H' ->
  (forall c, c < length (Rt.cmds H) -> Rt.c_alive (Rt.gcmd c H) = false -> Rt.c_alive (Rt.gcmd c H') = false) /\
  (forall u, u < length (Rt.tfl H) -> Rt.tf_alive (Rt.gtf u H) = false -> Rt.tf_alive (Rt.gtf u H') = false) /\
  (forall ch, Rt.ch_rx (Rt.gch ch H) = false -> Rt.ch_rx (Rt.gch ch H') = false).
Proof.
  intros fuel cid H H' E. pose proof (Perm.perm_settle fuel cid H H' E) as P.
  split; [exact (Perm.pm_dead _ _ P) | split; [exact (Perm.pm_gone _ _ P) | exact (Perm.pm_rx _ _ P)]].
Qed.
Theorem C13_rt_released_stays_released_poll_next : forall fuel cid w H r H',
  Rt.poll_next fuel cid w H = Some (r, H') ->
  (forall c, c < length (Rt.cmds H) -> Rt.c_alive (Rt.gcmd c H) = false -> Rt.c_alive (Rt.gcmd c H') = false) /\
  (forall u, u < length (Rt.tfl H) -> Rt.tf_alive (Rt.gtf u H) = false -> Rt.tf_alive (Rt.gtf u H') = false) /\
  (forall ch, Rt.ch_rx (Rt.gch ch H) = false -> Rt.ch_rx (Rt.gch ch H') = false).
Proof.
  intros fuel cid w H r H' E. pose proof (Perm.perm_poll_next fuel cid w H r H' E) as P.
  split; [exact (Perm.pm_dead _ _ P) | split; [exact (Perm.pm_gone _ _ P) | exact (Perm.pm_rx _ _ P)]].
Qed.

(* Full statement (false, see refutation 4): the cleared set is bounded by the waiting timers. *)
Definition C13_cleared_set_full_statement : Prop :=
  forall acts first, length (tm_cleared (trun (timers_init first) acts)) <= length (tm_pending (trun (timers_init first) acts)).

(* Proved: the cleared set is bounded by the waiting timers plus the clears of timers nobody was waiting on *)
Theorem C13_cleared_set_bound_partial : forall acts first,
  let t := trun (timers_init first) acts in
  length (tm_cleared t) <= length (tm_pending t) + length (tm_stale t).
Proof. intros acts first t. apply cleared_bound. apply trun_TInv. apply TInv_init. Qed.

(* Refutation 4 (class cleared_timer_id_kept_for_ever): set a timer, let it fire, clear it. *)
Theorem C13_cleared_set_refuted : ~ C13_cleared_set_full_statement.
Proof. intros H. specialize (H [TSet; TRespond 1%N; TClear 1%N] 1%N). vm_compute in H. lia. Qed.

(* non-vacuity of the partial theorems: a run in which one-shots are registered, answered and released *)
Example C13_nonvacuous : nonvacuous_run = true /\
  map (fun o => o_events o) (snd (run heap_empty [AIssue 3 KMany (Some 1) false; AResolve 0 5%N; APoll; AResolve 0 6%N]))
    = [[]; []; [(3, 5%N); (3, ENDED)]; []].
Proof. split; vm_compute; reflexivity. Qed.
