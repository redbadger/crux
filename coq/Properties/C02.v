(* C02 - a response reaches exactly the task that asked, with the declared arity.

   Model: coq/Bridge/Resolve.v - Resolve::{Never,Once,Many}::resolve (core/resolve.rs, Once swapped for Never
   before its closure runs), Request::resolve / Core::resolve (core/request.rs, core/mod.rs after fix f4ce20d:
   the error is returned in every build profile), the private channel per request of command/context.rs and the
   Weak-referenced shared state of capability/shell_request.rs / shell_stream.rs (both: deliver iff the consuming
   future is alive), ResolveSerialized::resolve and Resolve::deserializing (bridge/request_serde.rs), and the
   registry's answer for an id without entry (bridge/registry.rs after fix 117dd88).
   A heap holds the requests (callback, issuing task) and, separately, the channels (buffer, receiver alive,
   sender alive, ghost: accepted values, delivered values, owner task).  All theorems are about ARBITRARY
   heaps satisfying the invariant [Inv], which holds at every state reachable by ANY sequence of actions
   (issue by any task, typed or serialized resolution of any request with any value, repeated and late
   resolutions, dropped requests, polls, abort, drop of the command): no bound on the number of
   simultaneously outstanding requests, equal operations are indistinguishable to the model anyway.       *)
From Coq Require Import List Arith Bool ZArith NArith.
From Crux Require Import Base.Res Bridge.Slab Bridge.SlabProofs Bridge.Bridge Bridge.Resolve Bridge.ResolveProofs
                         Bridge.Arity Bridge.ArityProofs Bridge.Coherence.
From Crux Require Bridge.BridgeProofs.
Import ListNotations.

(* Invariant at every reachable state: (1) every callback points to the live sender of a channel whose
   receiver is held by the task that issued the request, (2) channel privacy: the sender of a channel occurs
   in the callback of at most one request, (3) for every channel: delivered is a prefix of accepted, and while
   the consumer is alive accepted = delivered ++ buffered (each accepted value is delivered at most once, in
   order, none invented); a one-shot channel accepts at most one value. *)
Theorem C02_invariant_reachable : forall acts, Inv (fst (run heap_empty acts)).
Proof. intros acts. apply run_Inv. apply Inv_empty. Qed.

(* Never (a notification, or a one-shot that was already resolved): every resolution is rejected with
   ResolveError::Never and the state is unchanged. *)
Theorem C02_never : forall h rid q v,
  nth_error (h_reqs h) rid = Some q -> q_res q = RNever ->
  step h (AResolve rid v) = (h, mkOut (Err E_Never) [] None).
Proof.
  intros h rid q v Hq Hr. rewrite (step_resolve h rid v q Hq), Hr. simpl.
  rewrite <- Hr, (set_req_same h rid q Hq), heap_eta. reflexivity.
Qed.

(* Once: the first resolution returns Ok; the callback is consumed (the request becomes Never); the value
   is appended to the request's own channel - owned by the task that issued the request - exactly when its
   consumer is still alive, and no other request or channel changes. *)
Theorem C02_once : forall h rid q c v,
  Inv h -> nth_error (h_reqs h) rid = Some q -> q_res q = ROnce c ->
  exists ch, nth_error (h_chans h) c = Some ch /\ ch_owner ch = q_owner q /\ ch_stream ch = false /\
    let h' := fst (step h (AResolve rid v)) in
    snd (step h (AResolve rid v)) = mkOut (Ok tt) [] None /\
    nth_error (h_reqs h') rid = Some (mkCell RNever (q_owner q) (q_kind q)) /\
    (forall r', r' <> rid -> nth_error (h_reqs h') r' = nth_error (h_reqs h) r') /\
    nth_error (h_chans h') c = Some (if ch_rx ch then closed (sent ch v) else closed ch) /\
    (forall c', c' <> c -> nth_error (h_chans h') c' = nth_error (h_chans h) c').
Proof.
  intros h rid q c v (H1 & _) Hq Hr.
  destruct (H1 rid q c Hq) as (ch & Hch & _ & Ho & Hs); [rewrite Hr; reflexivity|].
  rewrite Hr in Hs. exists ch. split; [exact Hch|]. split; [exact Ho|]. split; [exact Hs|].
  cbv zeta. rewrite (step_resolve h rid v q Hq), Hr. cbn [fst snd h_reqs h_chans own_res].
  split; [simpl; destruct (chan_send (h_chans h) c v); reflexivity|].
  split; [rewrite set_req_nth, Nat.eqb_refl, Hq; reflexivity|].
  split; [intros r' Hr'; rewrite set_req_nth; apply Nat.eqb_neq in Hr'; rewrite Hr'; reflexivity|].
  split; [|intros c' Hc']; rewrite resolve_step_nth; unfold owned; simpl.
  - rewrite Nat.eqb_refl, Hch. simpl. destruct (ch_rx ch); reflexivity.
  - apply Nat.eqb_neq in Hc'. rewrite Hc'. reflexivity.
Qed.

(* ... and every later resolution of it, after any further history, is rejected with an error and has no
   effect at all (state unchanged). *)
Theorem C02_once_second_rejected : forall h rid q c v acts v',
  Inv h -> nth_error (h_reqs h) rid = Some q -> q_res q = ROnce c ->
  let h1 := fst (run (fst (step h (AResolve rid v))) acts) in
  step h1 (AResolve rid v') = (h1, mkOut (Err E_Never) [] None).
Proof.
  intros h rid q c v acts v' _ Hq Hr h1.
  assert (Hq' : nth_error (h_reqs (fst (step h (AResolve rid v)))) rid = Some (mkCell RNever (q_owner q) (q_kind q))).
  { rewrite step_req_nth, Hq, Hr. unfold res_after. simpl. rewrite Nat.eqb_refl. reflexivity. }
  destruct (res_stable (fun _ => True) rid RNever (fun a _ => res_after_never a rid) acts _ _ Hq' eq_refl (fun _ _ => I))
    as (q2 & Hq2 & Hr2).
  eapply C02_never; eauto.
Qed.

(* Many: while the consumer is alive every resolution returns Ok and appends the value to the request's own
   channel (FIFO); once the consumer is gone the resolution returns FinishedMany and nothing changes. *)
Theorem C02_many : forall h rid q c v,
  Inv h -> nth_error (h_reqs h) rid = Some q -> q_res q = RMany c ->
  exists ch, nth_error (h_chans h) c = Some ch /\ ch_owner ch = q_owner q /\ ch_stream ch = true /\
    if ch_rx ch then
      step h (AResolve rid v) = (mkHeap (h_reqs h) (upd (h_chans h) c (sent ch v)) (h_aborted h), mkOut (Ok tt) [] None)
    else step h (AResolve rid v) = (h, mkOut (Err E_FinishedMany) [] None).
Proof.
  intros h rid q c v (H1 & _) Hq Hr.
  destruct (H1 rid q c Hq) as (ch & Hch & _ & Ho & Hs); [rewrite Hr; reflexivity|].
  rewrite Hr in Hs. exists ch. split; [exact Hch|]. split; [exact Ho|]. split; [exact Hs|].
  assert (Hsame : set_req h rid (RMany c) = h_reqs h) by (rewrite <- Hr; apply set_req_same; auto).
  simpl. rewrite Hq, Hr. simpl. unfold chan_send. rewrite Hch.
  destruct (ch_rx ch); simpl; rewrite Hsame; [|rewrite heap_eta]; reflexivity.
Qed.

(* After the consumer of a stream has ended and been cleaned up, every resolution, however late, is rejected
   with FinishedMany, changes nothing, and the consumer's delivered values stay what they were. *)
Theorem C02_many_finished : forall h rid q c ch acts v,
  Inv h -> nth_error (h_reqs h) rid = Some q -> q_res q = RMany c ->
  nth_error (h_chans h) c = Some ch -> ch_rx ch = false ->
  (forall a, In a acts -> a <> ADropReq rid) ->
  let h1 := fst (run h acts) in
  step h1 (AResolve rid v) = (h1, mkOut (Err E_FinishedMany) [] None) /\
  exists ch', nth_error (h_chans h1) c = Some ch' /\ ch_del ch' = ch_del ch.
Proof.
  intros h rid q c ch acts v HI Hq Hr Hch Hrx Hkeep h1.
  destruct (rx_dead_stable acts h c ch Hch Hrx) as (ch' & Hc' & Hr' & Hd' & _).
  destruct (res_stable _ rid (RMany c) (fun a => res_after_many a rid c) acts h q Hq Hr Hkeep) as (q1 & Hq1 & Hr1).
  fold h1 in Hq1, Hc'.
  destruct (C02_many h1 rid q1 c v (run_Inv acts h HI) Hq1 Hr1) as (ch1 & Hch1 & _ & _ & Hres).
  rewrite Hc' in Hch1. inversion Hch1; subst ch1. rewrite Hr' in Hres.
  split; [exact Hres|eauto].
Qed.

(* Routing, part 1: a value enters a channel only as the argument of a (typed or serialized) resolution of
   the one request whose callback owns that channel's sender, and that request was issued by the task that
   holds the channel's receiver. *)
Theorem C02_routing : forall h a c ch ch',
  Inv h -> nth_error (h_chans h) c = Some ch -> nth_error (h_chans (fst (step h a))) c = Some ch' ->
  ch_acc ch' <> ch_acc ch ->
  exists rid q v, (a = AResolve rid v \/ a = ASerResolve rid (Some v)) /\
                  nth_error (h_reqs h) rid = Some q /\ closure_of (q_res q) = Some c /\
                  q_owner q = ch_owner ch /\ ch_rx ch = true /\
                  ch_acc ch' = ch_acc ch ++ [v] /\ ch_buf ch' = ch_buf ch ++ [v].
Proof.
  intros h a c ch ch' (H1 & _) Hch Hch' Hne. rewrite step_chan_nth, Hch in Hch'. inversion Hch'; subst ch'. clear Hch'.
  destruct (chan_after_cases h a c ch) as [E|[E|[E|(rid & d & q & Ea & Hq & Hcl & E)]]]; rewrite E in *;
    try (elim Hne; reflexivity).
  - elim Hne. apply consume_static.
  - destruct (H1 rid q c Hq Hcl) as (ch0 & Hch0 & _ & Ho & _). rewrite Hch in Hch0. inversion Hch0; subst ch0.
    destruct (own_chan_acc _ _ _ Hne) as (v & -> & Hrx & Hacc & Hbuf). exists rid, q, v.
    split; [destruct a as [| |? [|]| | | |]; inversion Ea; auto|auto 7].
Qed.

(* Routing, part 2: a continuation event (task o received v) arises only when the tasks run, and v is then
   among the next buffered values of a channel whose receiver o holds, moved - in order - from buffered to
   delivered (or it is the end-of-stream mark). With the invariant (delivered is a prefix of accepted) and part 1:
   a task receives exactly the values resolved into requests it issued, unchanged, each once, in order. *)
Theorem C02_delivery : forall h a o v,
  Inv h -> In (o, v) (o_events (snd (step h a))) ->
  a = APoll /\ exists c ch ch', nth_error (h_chans h) c = Some ch /\ nth_error (h_chans (fst (step h a))) c = Some ch' /\
     ch_owner ch = o /\ ch_rx ch = true /\ ch_acc ch' = ch_acc ch /\
     exists got rest, ch_del ch' = ch_del ch ++ got /\ ch_buf ch = got ++ rest /\ (In v got \/ v = ENDED).
Proof. intros h a o v _. apply events_from_own_channel. Qed.

(* The serialized callback (ResolveSerialized built by Resolve::deserializing) is the typed callback composed
   with decoding, for the three arities ... *)
Theorem C02_serialized_mirrors : forall r chs v,
  sresolve_step (deserializing r) chs (Some v) =
  let '(r', chs', res) := resolve_step r chs v in (deserializing r', chs', res).
Proof. exact serialized_mirrors. Qed.

(* ... and for an undecodable body: Never still answers Never; a one-shot is consumed (its callback dropped
   uncalled) and reports DeserializeOutput; a stream reports DeserializeOutput and stays as it was. *)
Theorem C02_serialized_undecodable : forall r chs,
  sresolve_step (deserializing r) chs None =
  match r with
  | RNever => (SNever, chs, Err E_Never)
  | ROnce c => (SNever, chan_close_tx chs c, Err E_DeserializeOutput)
  | RMany c => (SMany c, chs, Err E_DeserializeOutput)
  end.
Proof. exact serialized_undecodable. Qed.

(* The registry-level model of the serialized path used for C09/C13 (Bridge.resume, abstract core) and the
   heap-level model above answer every response identically: the result is a function of the entry's arity,
   of whether the body decodes, and of whether the consumer is alive (core_call's answer there, the
   channel's receiver here). *)
Theorem C02_models_agree_heap : forall k c chs ch (body : option N),
  nth_error chs c = Some ch ->
  snd (sresolve_step (deserializing (closure_for k c)) chs body) =
  response_code k (match body with Some _ => true | None => false end) (ch_rx ch).
Proof.
  intros k c chs ch body Hch. destruct k; simpl; auto; destruct body as [v|]; simpl; auto.
  - destruct (chan_send chs c v); reflexivity.
  - unfold chan_send. rewrite Hch. destruct (ch_rx ch); reflexivity.
Qed.

Theorem C02_models_agree_bridge : forall (cstate op value handle B : Type)
  (core_call : cstate -> handle -> value -> cstate * bool) (core_drop : cstate -> handle -> cstate)
  (dec_out : op -> list B -> option (value * list B)) (b : bstate cstate op handle) id data e b' r,
  wf (b_reg b) -> slab_get (b_reg b) id = Some e ->
  resume cstate op value handle B core_call core_drop dec_out b id data = (b', r) ->
  r = response_code (r_kind e)
        (match dec_out (r_op e) data with Some _ => true | None => false end)
        (match dec_out (r_op e) data with Some (v, _) => snd (core_call (b_core b) (r_h e) v) | None => true end).
Proof.
  intros cstate op value handle B core_call core_drop dec_out b id data e b' r Hwf Hg Hr.
  pose proof (BridgeProofs.resume_spec _ _ _ _ _ core_call core_drop dec_out b id data Hwf) as Hs. rewrite Hg in Hs.
  assert (r = snd (BridgeProofs.answer _ _ _ _ _ core_call core_drop dec_out b e data)).
  { destruct (r_kind e); [destruct Hs as (reg' & Hs & _)|destruct Hs as (reg' & Hs & _)|];
      rewrite Hs in Hr; inversion Hr; reflexivity. }
  subst r. unfold BridgeProofs.answer. destruct (r_kind e), (dec_out (r_op e) data) as [[v rest]|]; reflexivity.
Qed.

(* The trace predicate evaluated on the implementation's observations holds of the model's own trace. *)
Theorem C02_ok_holds_of_model : forall auto legacy steps,
  C02_ok (auto, legacy, model_trace auto legacy heap_empty steps) = true.
Proof.
  intros auto lg steps. unfold C02_ok. simpl.
  pose proof (run_model_trace_ok auto lg steps heap_empty 0%N true 0%N 0%N) as H.
  destruct (run_case auto lg heap_empty 0 (model_trace auto lg heap_empty steps) (true, true, 0%N, 0%N)) as [[[ex ok] iex] iok].
  exact H.
Qed.

(* non-vacuity: a one-shot resolved twice, a stream whose consumer takes two values resolved three times *)
Example C02_nonvacuous :
  map (fun o => (res_code (o_res o), o_events o))
      (snd (run heap_empty [AIssue 7 KOnce None false; AIssue 8 KMany (Some 2) true; AResolve 0 11; AResolve 0 12; APoll;
                            AResolve 1 21; AResolve 1 22; AResolve 1 23; APoll; AResolve 1 24]))
  = [(0%Z, []); (0%Z, []); (0%Z, []); (3%Z, []); (0%Z, [(7, 11%N)]);
     (0%Z, []); (0%Z, []); (0%Z, []); (0%Z, [(8, 21%N); (8, 22%N); (8, ENDED)]); (4%Z, [])].
Proof. vm_compute. reflexivity. Qed.

(* ---------------------------------------------------------------------------------------------------------
   Second model: whole apps under a Core, in the reference semantics coq/Rt/Ref.v + RefCore.v (handler
   tables over the task/command language of coq/Rt/Lang.v: requests, streams, joins, select, spawned
   tasks, legacy capability requests awaited in command tasks, any nesting of combinators; histories of
   events, resolutions and drops).  The implementation is compared with this semantics call by call on
   every run (RC_ok, engines/rt_eng.py rc_stage).  Proved for every app, every history and every state the
   history reaches: request ids are never reused, at most one waiter exists per id, and a resolution
   is received - unchanged, in the variable the task named - by exactly the strand that issued the request,
   while no other strand of any command of the app changes. *)
(* In the function-for-function runtime model (coq/Rt/Rt.v): a value handed to a request's resolve closure goes
   into that request's OWN channel - it is appended to that channel's buffer when the awaiting future is alive,
   refused when it is gone - and the buffer of every other channel is left as it was, whatever wake-ups the
   delivery causes (waking touches no channel at all); closing the sender afterwards (Resolve::Once is consumed)
   changes no buffer either.  For every heap. *)
From Crux Require Rt.Perm.
Theorem C02_rt_value_goes_into_the_requests_own_channel : forall ch v H c,
  Rt.ch_buf (Rt.gch c (snd (Rt.chan_send ch v H))) =
  if Nat.eqb c ch then (if Rt.ch_rx (Rt.gch ch H) then Rt.ch_buf (Rt.gch ch H) ++ [v] else Rt.ch_buf (Rt.gch ch H))
  else Rt.ch_buf (Rt.gch c H).
Proof. exact Perm.chan_send_routes. Qed.
Theorem C02_rt_waking_touches_no_channel : forall fuel w H, Rt.chans (Rt.wake fuel w H) = Rt.chans H.
Proof. exact Perm.wake_chans. Qed.
Theorem C02_rt_consuming_the_sender_changes_no_buffer : forall ch H c,
  Rt.ch_buf (Rt.gch c (Rt.chan_drop_tx ch H)) = Rt.ch_buf (Rt.gch c H).
Proof. exact Perm.chan_drop_tx_keeps_buffers. Qed.

From Crux Require Rt.Lang Rt.Rt Rt.Host Rt.Ref Rt.RefCore Rt.RefCoreProps.

Theorem C02_ref_one_waiter_per_request : forall hs st,
  RefCoreProps.reach hs st ->
  forall rid, RefCoreProps.cw_cmds rid (RefCore.ks_cmds st) <= 1 /\
              (1 <= RefCoreProps.cw_cmds rid (RefCore.ks_cmds st) -> rid < RefCore.ks_n st).
Proof. exact RefCoreProps.reach_Inv. Qed.

Theorem C02_ref_ids_fresh : forall hs st,
  RefCoreProps.reach hs st -> forall rid, RefCore.ks_n st <= rid -> RefCoreProps.cw_cmds rid (RefCore.ks_cmds st) = 0.
Proof. exact RefCoreProps.fresh_ids. Qed.

Theorem C02_ref_delivery_exact : forall hs st pre s post rid x k v,
  RefCoreProps.reach hs st ->
  RefCoreProps.strands_of (RefCore.ks_cmds st) = pre ++ s :: post ->
  Ref.s_leaf s = Ref.RReq rid x k ->
  RefCoreProps.strands_of (snd (RefCore.kdeliver rid v (RefCore.ks_cmds st))) =
  pre ++ Ref.mkRS (Ref.s_uid s) (Rt.setv x v (Ref.s_env s)) (Ref.RRun k) (Ref.s_stack s) :: post.
Proof. exact RefCoreProps.delivery_exact. Qed.

(* non-vacuity: an app with two look-alike handlers; after two events two strands wait on two different
   ids for the same operation; the hypotheses of the delivery theorem hold of the second one *)
Definition C02_demo_app : Host.handlers := [(1, Lang.CNew (Lang.TReq 5 (Lang.K 0) 1 (Lang.TEmit 100 (Lang.V 1) Lang.TRet)) [])].
Definition C02_demo_after (st : RefCore.kst) : RefCore.kst :=
  match RefCore.kstep C02_demo_app (Lang.AEvent 1 7) st with Some (_, s) => s | None => st end.
Definition C02_demo_st1 : RefCore.kst := Eval vm_compute in C02_demo_after RefCore.ks0.
Definition C02_demo_st2 : RefCore.kst := Eval vm_compute in C02_demo_after C02_demo_st1.
Example C02_ref_nonvacuous :
  exists s0 s1, RefCoreProps.reach C02_demo_app C02_demo_st2 /\
    RefCoreProps.strands_of (RefCore.ks_cmds C02_demo_st2) = [s0] ++ s1 :: [] /\
    Ref.s_leaf s0 = Ref.RReq 0 1 (Lang.TEmit 100 (Lang.V 1) Lang.TRet) /\
    Ref.s_leaf s1 = Ref.RReq 1 1 (Lang.TEmit 100 (Lang.V 1) Lang.TRet).
Proof.
  exists (Ref.mkRS 0 [7] (Ref.RReq 0 1 (Lang.TEmit 100 (Lang.V 1) Lang.TRet)) []).
  exists (Ref.mkRS 0 [7] (Ref.RReq 1 1 (Lang.TEmit 100 (Lang.V 1) Lang.TRet)) []).
  split; [|split; [|split]]; try reflexivity.
  apply (RefCoreProps.reach_step' _ (Lang.AEvent 1 7) C02_demo_st1); [|vm_compute; reflexivity].
  apply (RefCoreProps.reach_step' _ (Lang.AEvent 1 7) RefCore.ks0); [apply RefCoreProps.reach0 | vm_compute; reflexivity].
Qed.
