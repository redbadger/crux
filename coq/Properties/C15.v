(* C15 - every HTTP result yields exactly one well-classified outcome.
   Model: HttpResp/Resp.v (crux_http with the fixes c181421, 649a428, 621d2f7, 716537a, commits of /repo);
   proofs: HttpResp/RespProofs.v.  The three oracles (http-types Mime charset lookup, encoding_rs,
   serde_json) are universally quantified in every statement. *)
From Coq Require Import List NArith Bool String.
From Crux Require Import HttpResp.Resp HttpResp.RespProofs.
Import ListNotations.
Open Scope string_scope. Open Scope N_scope.

(* Full statement: for every API, expectation and shell result, the single event the app receives
   satisfies the classification predicate [C15_ok] (Resp.v: shell error unchanged; 4xx/5xx => Http
   error with that status and body; 1xx-3xx => success with the same status, headers and body decoded
   as the conforming decoder decodes it, or an error value when that decoder rejects the body; no panic,
   exactly one event). *)
Definition C15_full_statement : Prop :=
  forall mime_charset decode json a x r,
    C15_ok mime_charset decode json x r (run mime_charset decode json a x r) = true.

(* The part that holds of every input: exactly one event, never a panic (in both APIs). *)
Theorem C15_one_outcome : forall mime_charset decode json a x r,
  exists o, run mime_charset decode json a x r = T1 o /\ o <> HPanic.
Proof. exact one_outcome. Qed.

Theorem C15_one_outcome_decidable : forall mime_charset decode json a x r,
  one_nonpanic (run mime_charset decode json a x r) = true.
Proof.
  intros mc d j a x r. destruct (C15_one_outcome mc d j a x r) as [o [-> N]]. destruct o; [reflexivity | reflexivity | congruence].
Qed.

(* Proved part of the classification: everything outside the two listed classes (a status between 100
   and 599 that http-types has no name for; a header name or value that is not ASCII). *)
Theorem C15_classify_partial : forall mime_charset decode json a x r,
  known_unknown_status r = false -> known_non_ascii_header r = false ->
  C15_ok mime_charset decode json x r (run mime_charset decode json a x r) = true.
Proof. exact model_ok. Qed.

Theorem C15_shell_error_unchanged : forall mime_charset decode json a x e,
  run mime_charset decode json a x (RErr e) = T1 (HErr e).
Proof. exact passthrough. Qed.

Theorem C15_error_status : forall mime_charset decode json a x resp,
  known_status (r_status resp) = true -> all_ascii (r_headers resp) = true -> 400 <= r_status resp ->
  run mime_charset decode json a x (ROk resp) =
  T1 (HErr (EHttp (r_status resp) (dec (r_status resp)) (Some (r_body resp)))).
Proof.
  intros mc d j a x resp Hk Ha Hs. rewrite (run_representable mc d j a x resp Hk Ha).
  rewrite (proj2 (range_b 400 600 _)); [reflexivity|]. split; [exact Hs|apply known_status_range, Hk].
Qed.

Theorem C15_success_faithful : forall mime_charset decode json a x resp,
  known_status (r_status resp) = true -> all_ascii (r_headers resp) = true -> r_status resp < 400 ->
  match expected_body mime_charset decode json x resp with
  | Some b => exists o, run mime_charset decode json a x (ROk resp) = T1 (HOk o) /\
                        rs_status o = r_status resp /\
                        headers_same_b (r_headers resp) (rs_headers o) = true /\
                        rs_body o = Some b /\ rs_version o = None
  | None => exists e, run mime_charset decode json a x (ROk resp) = T1 (HErr e)
  end.
Proof. exact success_faithful. Qed.

(* "the same headers", unfolded: under every name the app finds exactly the values the shell sent under
   that name (case-insensitively), in the shell's order.  [build hs []] is the map the app receives for
   the shell's headers hs (RespProofs.from_protocol_ok, run_representable). *)
Theorem C15_headers_lookup : forall hs name,
  hm_get (lower name) (build hs []) = match shell_values name hs with [] => None | vs => Some vs end.
Proof. intros hs name. apply hm_get_build. Qed.

Theorem C15_both_apis_agree : forall mime_charset decode json x r,
  run mime_charset decode json ACmd x r = run mime_charset decode json ACap x r.
Proof. exact apis_agree. Qed.

(* What happens inside the two classes (since 649a428 and 621d2f7): an error value, not a panic. *)
Theorem C15_unrepresentable_is_error : forall mime_charset decode json a x resp,
  known_status (r_status resp) && all_ascii (r_headers resp) = false ->
  exists msg, run mime_charset decode json a x (ROk resp) = T1 (HErr (EIo msg)).
Proof. exact run_unrepresentable. Qed.

(* The full statement is false of the faithful model; both witnesses are replayed on the code. *)
Definition C15_witness_299 : http_response := {| r_status := 299; r_headers := []; r_body := [104; 105] |}.
Theorem C15_unknown_status_refuted : forall mime_charset decode json a,
  run mime_charset decode json a XBytes (ROk C15_witness_299) = T1 (HErr (EIo (msg_status 299))) /\
  C15_ok mime_charset decode json XBytes (ROk C15_witness_299)
         (run mime_charset decode json a XBytes (ROk C15_witness_299)) = false.
Proof. intros mc d j a. destruct a; split; reflexivity. Qed.

(* header value "é" (UTF-8 c3 a9) on a 200 *)
Definition C15_witness_e_acute : http_response :=
  {| r_status := 200; r_headers := [([120; 45; 97], [195; 169])]; r_body := [104; 105] |}.
Theorem C15_non_ascii_header_refuted : forall mime_charset decode json a,
  run mime_charset decode json a XBytes (ROk C15_witness_e_acute) = T1 (HErr (EIo (msg_value [120; 45; 97]))) /\
  C15_ok mime_charset decode json XBytes (ROk C15_witness_e_acute)
         (run mime_charset decode json a XBytes (ROk C15_witness_e_acute)) = false.
Proof. intros mc d j a. destruct a; split; reflexivity. Qed.

Theorem C15_full_statement_refuted :
  exists mime_charset decode json a x r,
    C15_ok mime_charset decode json x r (run mime_charset decode json a x r) = false.
Proof.
  exists (fun _ => None), (fun _ b => inl b), (fun b => inl b), ACmd, XBytes, (ROk C15_witness_299).
  apply C15_unknown_status_refuted.
Qed.

(* non-vacuity: the hypotheses of the partial theorem are met by an ordinary response, which succeeds
   with its headers merged by name *)
Example C15_nonvacuous :
  let r := {| r_status := 200;
              r_headers := [(str "Content-Type", str "text/plain; charset=utf-8"); (str "X-A", str "1"); (str "x-a", str "2")];
              r_body := str "hi" |} in
  known_unknown_status (ROk r) = false /\ known_non_ascii_header (ROk r) = false /\
  run (fun _ => Some (str "utf-8")) (fun _ b => inl b) (fun b => inl b) ACap XString (ROk r) =
  T1 (HOk {| rs_status := 200; rs_version := None;
             rs_headers := [(str "content-type", [str "text/plain; charset=utf-8"]); (str "x-a", [str "1"; str "2"])];
             rs_body := Some (BString (str "hi")) |}).
Proof. vm_compute. repeat split. Qed.
