(* C04 - command combinators and builder chains mean what they say. *)
From Coq Require Import List Arith Bool NArith Lia.
From Crux Require Import Rt.Lang Rt.Rt Rt.Host Rt.Ref Rt.RefFacts Rt.RefProps Rt.RefLaws Rt.Check Rt.SmallScope Rt.SmallScopeProof.
Import ListNotations.

(* The full statement: for every command and every schedule the runtime model's trace equals the
   reference semantics' trace per step up to the order of outputs within a step.  This refinement is
   NOT proved in general, only on the small scope below; it is carried on every run by comparing the
   reference semantics with the real implementation (C04_ok on implementation traces) and the runtime
   model with the implementation.  What is proved for every command are the laws of the reference
   semantics themselves. *)
Definition C04_refines_full_statement : Prop :=
  forall p acts t, cmd_abort_free p = true -> sched_abort_free acts = true ->
    direct FUEL0 p acts = Some t -> C04_ok (false, false, p, [], acts, t) = true.

(* The refinement itself on an exhaustive small scope, decided by the kernel (coq/Rt/SmallScope.v): for ALL 1505
   commands built from tasks of at most two statements (emit, notify, request, stream loops, spawn with and
   without join, self-wake, join!, select!), for mains of at most one statement an optional extra task (one of the
   first six forms), and five wrappers (none, then, all with a sibling, map_event over map_effect, and with
   map_effect), under ALL schedules of at most two shell inputs (resolve or drop any request of the command) with
   effects / events / is_done inspected before the first and after every input - 24 111 (command, schedule)
   cases - the trace of the runtime model (queues, wakers, slabs, eviction, forwarding) equals the trace of the
   reference semantics step for step: same effects and events up to order within a step, same done flags, same
   result codes.  A finite statement, the bound is part of it. *)
Theorem C04_refines_on_the_small_scope : forall c acts, In c small_cmds -> In acts (scheds c) ->
  exists t r, direct FUEL0 c acts = Some t /\ ref_direct RF c acts = Some r /\ list_eqb2 robs_obs_eqb r t = true /\
              in_fragment (false, false, c, [], acts, t) = true.
Proof. intros c acts Ic. exact (cmd_ok_sound c (small_cmds_ok c Ic) acts). Qed.
Theorem C04_small_scope_size : (N.of_nat (length small_cmds), small_scope_size) = (1505%N, 24111%N).
Proof. vm_compute. reflexivity. Qed.

(* Laws, for every command, every fuel and every schedule of inspections, resolutions, drops (exact
   equality of traces, resolve result codes and done flags included).  Schedules that also spawn further
   tasks onto the outermost command (cmd.spawn) are excluded: there the wrapped and the bare command
   differ structurally (the task lands beside the wrapper, not inside it) and the simulation used here
   does not cover that. *)
Theorem C04_all_of_one_is_that_command : forall f c acts, no_spawn acts = true -> ref_direct (S f) (CAll [c]) acts = ref_direct f c acts.
Proof. intros f c acts. exact (par_with_dones f [] c [] acts (Forall_nil _) (Forall_nil _)). Qed.
Theorem C04_map_effect_identity : forall f c acts, no_spawn acts = true -> ref_direct (S f) (CIdEff c) acts = ref_direct f c acts.
Proof. intros f c acts. exact (map_id_trace RMapEff f c acts (or_introl eq_refl)). Qed.
Theorem C04_map_event_identity : forall f c acts, no_spawn acts = true -> ref_direct (S f) (CIdEv c) acts = ref_direct f c acts.
Proof. intros f c acts. exact (map_id_trace RMapEv f c acts (or_intror eq_refl)). Qed.
Theorem C04_into_identity : forall f c acts, no_spawn acts = true -> ref_direct (S (S f)) (CInto c) acts = ref_direct f c acts.
Proof.
  intros f c acts NS. rewrite <- (C04_map_effect_identity f c acts NS). exact (C04_map_event_identity (S f) (CIdEff c) acts NS).
Qed.
Theorem C04_nesting_to_any_depth : forall k f c acts, no_spawn acts = true -> ref_direct (3 * k + f) (wrapn k c) acts = ref_direct f c acts.
Proof.
  induction k as [|k IH]; intros f c acts NS; [reflexivity|].
  replace (3 * S k + f) with (S (S (S (3 * k + f)))) by lia. cbn [wrapn].
  rewrite C04_all_of_one_is_that_command, C04_map_event_identity, C04_map_effect_identity by exact NS. apply IH, NS.
Qed.

(* done is a unit for then on the RIGHT as well, and for and on either side; all of nothing is done.  These wrappers
   are not uniform (the sequence node disappears when its first part has finished, the done part of an `and`
   runs once), so they are proved by a simulation relation between residual commands (Rt/RefLaws.v): exact
   equality of the whole traces - effects, events, result codes of resolutions, done flags - for every command
   and every schedule of inspections, resolutions and drops. *)
Theorem C04_then_done_right_unit : forall f c acts, no_spawn acts = true -> ref_direct (S f) (CThen c c_done) acts = ref_direct f c acts.
Proof.
  intros f c acts NS. apply (simR_trace (S f) f (Rtd f) (Rtd_run f) (Rtd_deliver f) (Rtd_drop f)); [exact NS|].
  apply simR_init. left. reflexivity.
Qed.
Theorem C04_and_done_left_unit : forall f c acts, no_spawn acts = true -> ref_direct (S f) (CAnd c_done c) acts = ref_direct f c acts.
Proof. intros f c acts. exact (par_with_dones f [done_bag0] c [] acts (Forall_cons _ done_bag0_is (Forall_nil _)) (Forall_nil _)). Qed.
Theorem C04_and_done_right_unit : forall f c acts, no_spawn acts = true -> ref_direct (S f) (CAnd c c_done) acts = ref_direct f c acts.
Proof. intros f c acts. exact (par_with_dones f [] c [done_bag0] acts (Forall_nil _) (Forall_cons _ done_bag0_is (Forall_nil _))). Qed.
Theorem C04_then_done_left_unit_traces : forall f c acts t, no_spawn acts = true ->
  ref_direct f c acts = Some t -> ref_direct (S f) (CThen c_done c) acts = Some t.
Proof. exact then_done_left_trace. Qed.
Theorem C04_all_of_nothing_is_done : forall f acts, no_spawn acts = true -> ref_direct (S f) (CAll []) acts = ref_direct (S f) c_done acts.
Proof. exact all_nil_is_done. Qed.

(* One step of [run], and [rdone], on a sequence, a parallel node and a map, read off the definitions; these are
   not equalities of traces. *)
Theorem C04_then_done_left_unit : forall f en c n,
  run (S (S f)) en (start en (CThen c_done c)) n =
  match run (S f) en (start en c) n with
  | Some (c', n', o) => Some (c', n', mkRO (ro_effs o) (ro_evs o))
  | None => None
  end.
Proof.
  intros f en c n. change (start en (CThen c_done c)) with (RSeq (start en c_done) c).
  rewrite run_seq_eq, run_done. cbn [rdone b_strands].
  destruct (run (S f) en (start en c) n) as [[[c' n'] o]|]; reflexivity.
Qed.
Theorem C04_then_waits_for_first : forall f en a b n a' n1 o1,
  run f en a n = Some (a', n1, o1) -> rdone a' = false ->
  run (S f) en (RSeq a b) n = Some (RSeq a' b, n1, o1).
Proof. intros f en a b n a' n1 o1 E D. rewrite run_seq_eq, E, D. reflexivity. Qed.
Theorem C04_all_done_iff_all_parts : forall l, rdone (RPar l) = true <-> forall r, In r l -> rdone r = true.
Proof. intros l. apply forallb_forall. Qed.
Theorem C04_map_effect_maps_every_output_once : forall f en k a n a' n' o,
  run f en a n = Some (a', n', o) -> run (S f) en (RMapEff k a) n = Some (RMapEff k a', n', ro_map_eff k o).
Proof. intros f en k a n a' n' o E. rewrite run_mapeff_eq, E. reflexivity. Qed.
Theorem C04_map_event_maps_every_output_once : forall f en k a n a' n' o,
  run f en a n = Some (a', n', o) -> run (S f) en (RMapEv k a) n = Some (RMapEv k a', n', ro_map_ev k o).
Proof. intros f en k a n a' n' o E. rewrite run_mapev_eq, E. reflexivity. Qed.

(* done / event / notify produce exactly their single output (closed computations on the semantics) *)
Example C04_primitives :
  ref_direct RF c_done [AEffects; AEvents; AIsDone] = Some [ROEffects []; ROEvents []; RODone true] /\
  ref_direct RF (c_event 7 3) [AEffects; AEvents; AIsDone] = Some [ROEffects []; ROEvents [mkEv 7 3 []]; RODone true] /\
  ref_direct RF (c_notify 5 2) [AEffects; AEvents; AIsDone] = Some [ROEffects [mkRE 5 2 [] 0 0]; ROEvents []; RODone true].
Proof. vm_compute. repeat split. Qed.
Example C04_nonvacuous :
  ref_direct RF (CThen (c_req_send 1 7 9) (c_event 8 1)) [AEffects; AEvents; AIsDone; AResolve 1 7 0 5; AEvents; AIsDone]
  = Some [ROEffects [mkRE 1 7 [] 0 1]; ROEvents []; RODone false; ROResolve 0; ROEvents [mkEv 9 5 []; mkEv 8 1 []]; RODone true].
Proof. vm_compute. reflexivity. Qed.
