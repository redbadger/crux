(* C09 - the serialized bridge is a faithful, correctly routed image of the core.

   Model: coq/Bridge/Bridge.v (bridge/mod.rs, bridge/registry.rs, bridge/request_serde.rs, Effect::serialize
   from crux_macros, core/resolve.rs + Core::{process_event,resolve,view} for the typed side) over the exact
   slab 0.4.9 model coq/Bridge/Slab.v.  The app with its executor (the five core_* entry points) and the
   byte codec are Section variables: every theorem below is quantified over all of them, i.e. holds for
   every app, every command it returns, every order in which its tasks run, and every codec that can
   decode what it encodes.                                                                              *)
From Coq Require Import List Arith Bool ZArith NArith.
From Crux Require Import Base.Res Bridge.Slab Bridge.SlabProofs Bridge.Bridge Bridge.BridgeProofs
                         Bridge.RegistryProofs Bridge.ImageProofs.
Import ListNotations.

Section C09.
Variables (cstate event op value view handle B : Type).
Notation eff := (eff op handle).
Notation bytes := (list B).
Variable core_event : cstate -> event -> cstate * list eff.     (* Core::process_event *)
Variable core_process : cstate -> cstate * list eff.            (* Core::process after a resolve *)
Variable core_call : cstate -> handle -> value -> cstate * bool. (* a request's resolve callback *)
Variable core_drop : cstate -> handle -> cstate.                (* dropping a callback uncalled *)
Variable core_view : cstate -> view.                            (* Core::view *)
Variable dec_event : bytes -> option (event * bytes).
Variable dec_out : op -> bytes -> option (value * bytes).
Variable enc_reqs : list (nat * op) -> bytes.
Variable enc_view : view -> bytes.
Variable dec_reqs : bytes -> option (list (nat * op) * bytes).
Variable dec_view : bytes -> option (view * bytes).
Hypothesis reqs_law : forall l rest, dec_reqs (enc_reqs l ++ rest) = Some (l, rest).
Hypothesis view_law : forall v rest, dec_view (enc_view v ++ rest) = Some (v, rest).

Notation twin_run := (twin_run cstate event op value view handle B core_event core_process core_call
                                core_drop core_view dec_event dec_out enc_reqs enc_view).
Notation bridge_run := (bridge_run cstate event op value view handle B core_event core_process core_call
                                   core_drop core_view dec_event dec_out enc_reqs enc_view).
Notation bridge_step := (bridge_step cstate event op value view handle B core_event core_process core_call
                                     core_drop core_view dec_event dec_out enc_reqs enc_view).
Notation translate := (translate cstate event op value handle B dec_event dec_out).
Notation c_out := (c_out cstate op view handle B).

(* Run the bridge on ANY history of byte-level calls (events, responses with arbitrary ids
   and bodies in any order, view requests) from the initial state, and next to it a typed shell that holds
   the typed requests and mirrors each call ([translate]: the decoded event; core.resolve of the request
   registered under the id with the decoded value; nothing / dropping the request when the bridge call
   fails before reaching the core).  Then for every call of the history: a failing bridge call returns
   exactly the predicted error; otherwise the shell's decoder applied to the bytes the bridge returned
   yields exactly the typed core's effects for that call (same operations, same order), each paired with
   an id under which exactly that effect's callback is registered afterwards, ids pairwise distinct within
   the call and not in use before it (or, in a response, the id responded to, which the call released);
   typed errors come back as the same error; the view decodes to the typed view.  (The only panic of the
   model is the u32 overflow of an id: C09_panic_only_id_overflow.) *)
Theorem C09_image : forall (c0 : cstate) (history : list (binput B)),
  let calls := twin_run (bridge_init cstate op handle c0) (typed_init cstate handle c0) history in
  (forall c, In c calls -> is_panic (c_out c) = false) ->
  Forall (decoded_image cstate op view handle B dec_reqs dec_view) calls.
Proof.
  intros c0 history. apply twin_decoded_image with (enc_reqs := enc_reqs) (enc_view := enc_view); auto.
  apply R_init.
Qed.

(* The bridge panics in no call unless an id would exceed u32 (>= 2^32 slab entries). *)
Theorem C09_panic_only_id_overflow : forall b i b' r,
  BInv cstate op handle b -> bridge_step b i = (b', r) -> is_panic r = true ->
  exists effs : list eff, (U32_LIMIT < N.of_nat (length (entries (b_reg b))) + N.of_nat (length effs))%N.
Proof. apply step_panic_overflow. Qed.

(* At every reachable state (any history, no bound on its length) the free-list
   invariant of the slab holds, the ghost log of Issue/Forget events is well formed, the requests
   registered according to the log are exactly the slab's occupied entries, and their ids are pairwise
   distinct. *)
Theorem C09_ids_distinct : forall (c0 : cstate) (history : list (binput B)),
  let b := snd (bridge_run (bridge_init cstate op handle c0) history) in
  wf (b_reg b) /\
  NoDup (map snd (live (b_log b))) /\
  (forall s i, In (s, i) (live (b_log b)) <-> exists e, slab_get (b_reg b) i = Some e /\ r_seq e = s).
Proof.
  intros c0 history b. assert (HB : BInv cstate op handle b) by apply run_inv, BInv_init.
  destruct HB as (Hwf & HL & Hlw).
  split; [exact Hwf|]. split; [apply log_wf_ids_distinct; exact Hlw|exact HL].
Qed.

(* In the log of any reachable state, between two Issues of the same id there is the
   Forget of the request the id was first issued to: an id is reissued only after its entry was removed. *)
Theorem C09_id_reuse_safe : forall (c0 : cstate) (history : list (binput B)) l1 s1 i l2 s2 l3,
  b_log (snd (bridge_run (bridge_init cstate op handle c0) history)) = l1 ++ Issue s1 i :: l2 ++ Issue s2 i :: l3 ->
  In (Forget s1 i) l2.
Proof.
  intros c0 history l1 s1 i l2 s2 l3 Hlog.
  assert (HB : BInv cstate op handle (snd (bridge_run (bridge_init cstate op handle c0) history)))
    by apply run_inv, BInv_init.
  eapply log_wf_reuse_safe; [apply HB|exact Hlog].
Qed.

(* If, according to the log, request number s is the one registered under id, then the slab
   has its entry under id, no other request is registered under id, and a response (id, data) whose body
   decodes to v is mirrored by the typed core.resolve of exactly request s with v (so C09_image applies
   to it) ... *)
Theorem C09_routes : forall b id s data,
  BInv cstate op handle b -> In (s, id) (live (b_log b)) ->
  exists e, slab_get (b_reg b) id = Some e /\ r_seq e = s /\
    (forall s', In (s', id) (live (b_log b)) -> s' = s) /\
    (forall v rest, dec_out (r_op e) data = Some (v, rest) -> r_kind e <> KNever ->
       translate b (BResp id data) = (Some (TResolve s v), None)).
Proof.
  intros b id s data (Hwf & HL & Hlw) Hin. destruct (proj1 (HL s id) Hin) as (e & Hg & Hs).
  exists e. split; [exact Hg|]. split; [exact Hs|]. split.
  - intros s' Hin'. destruct (proj1 (HL s' id) Hin') as (e' & Hg' & Hs'). congruence.
  - intros v rest Hd Hk. simpl. rewrite Hg. destruct (r_kind e); [congruence| |]; rewrite Hd, Hs; reflexivity.
Qed.

(* ... and the bridge call invokes exactly that entry's callback, once, with v, and then lets the core
   run (unless a stream's consumer is gone: FinishedMany, core not run). *)
Theorem C09_routes_core : forall b id e v rest data b' r,
  BInv cstate op handle b -> slab_get (b_reg b) id = Some e -> r_kind e <> KNever ->
  dec_out (r_op e) data = Some (v, rest) ->
  bridge_step b (BResp id data) = (b', r) -> is_panic r = false ->
  let c1 := fst (core_call (b_core b) (r_h e) v) in
  let ok := snd (core_call (b_core b) (r_h e) v) in
  match r_kind e, ok with
  | KMany, false => b_core b' = c1 /\ r = Err E_FinishedMany
  | _, _ => b_core b' = fst (core_process c1) /\ is_ok r = true
  end.
Proof. intros b id e v rest data b' r HB. apply routes_core, HB. Qed.

(* Slab facts the above rest on (slab 0.4.9 model): insert never reaches its unreachable!(), hands out a
   key that is not in use, and the key released last is the key handed out next (LIFO). *)
Theorem C09_slab_insert_fresh : forall (V : Type) (s : slab V) v, wf s ->
  exists k s', slab_insert s v = Ok (k, s') /\ slab_get s k = None /\ slab_get s' k = Some v /\
               (forall j, j <> k -> slab_get s' j = slab_get s j) /\ wf s'.
Proof. intros V s v H. destruct (insert_spec s v H) as (s' & E & A). exists (next s), s'. exact (conj E A). Qed.

Theorem C09_slab_lifo : forall (V : Type) (s : slab V) k v v', wf s -> slab_get s k = Some v ->
  exists s' s'', slab_remove s k = Ok (v, s') /\ slab_insert s' v' = Ok (k, s'').
Proof. intros V s k v v'. apply remove_then_insert_reuses. Qed.

End C09.

(* non-vacuity: the hypotheses are satisfiable (a lawful codec and a core exist: the instance used for
   case evaluation), and a concrete history exercises issue, forget, reuse of the freed id and an error *)
From Crux Require Import Bridge.Twin Bridge.TwinProofs.
Example C09_nonvacuous :
  (forall l rest, t_dec_reqs (t_enc_reqs l ++ rest) = Some (l, rest)) /\
  (forall v rest, t_dec_view (t_enc_view v ++ rest) = Some (v, rest)) /\
  nonvacuous_run = true.
Proof. split; [exact t_reqs_law|]. split; [exact t_view_law|]. vm_compute. reflexivity. Qed.

(* The decidable trace predicate the check evaluates on the implementation's observations (image of every
   call, ids fresh / distinct / registered with the right arity, same view) holds of the model's own
   observations, for every behaviour of the core (replay tables) and every history. *)
Theorem C09_ok_holds_of_model : forall (tb : rtables) (ins : list oin),
  (forall c, In c (m_twin_run tb (map bin_of ins)) -> is_panic (c_out _ _ _ _ _ c) = false) ->
  C09_ok (map (fun p => model_obs tb (fst p) (snd p)) (combine ins (m_twin_run tb (map bin_of ins)))) = true.
Proof.
  intros tb ins Hnp. unfold C09_ok.
  change (@nil (nat * rkind)) with (snap_of (bridge_init rcs aop nat rcs_init)).
  apply model_ok_from; [apply R_init|exact Hnp].
Qed.
