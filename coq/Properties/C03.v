(* C03 - events are applied one at a time, exactly once, in emission order. *)
From Coq Require Import List Arith Bool.
From Crux Require Import Rt.Lang Rt.Rt Rt.Tables Rt.Host Rt.Check Rt.HostProps.
From Crux Require Rt.Fifo.
Import ListNotations.

(* For every app (handler table), every history and every reachable core state: the log of applied
   events only ever grows by appending, a call that submits an event applies that event first, and a
   rejected resolution applies nothing.  This is C03_log of Check.v holding of every model trace; the
   same predicate is evaluated on the implementation's view after every call. *)
Theorem C03_log_ok : forall fuel acts hs k os, crun fuel hs acts k = Some os -> C03_log acts os (k_log k) = true.
Proof. exact crun_log_ok. Qed.

Theorem C03_log_ok_from_new_core : forall fuel hs acts os, under_core fuel hs acts = Some os -> C03_log acts os [] = true.
Proof. intros fuel hs acts os. exact (crun_log_ok fuel acts hs core0 os). Qed.

(* update is entered only from the process loop, once per popped event: a call appends to the log
   exactly the events it pops, in order (process is the only function that extends k_log). *)
Theorem C03_process_appends : forall fuel0 fuel hs k k', process fuel0 fuel hs k = Some k' -> extends (k_log k) (k_log k').
Proof. exact process_log. Qed.
Theorem C03_executor_never_applies : forall fuel0 fuel k k', run_all fuel0 fuel k = Some k' -> k_log k' = k_log k.
Proof. intros fuel0 fuel k k' E. apply (run_all_spec fuel0 fuel k k' E). Qed.

(* First in, first out, exactly once, between the core's event channel and update.  The PIPELINE of a core is
   the log of applied events followed by the events still waiting in the channel.  Every step of the model -
   any executor pass over any tasks, the event loop itself - only ever appends to it: the executor puts what
   tasks emit at the END of the channel, the loop moves the HEAD of the channel to the end of the log.  So
   between the channel and update no event overtakes another, none is dropped and none is applied twice; and
   since a call returns only with the channel empty (C01_core_idle_at_return), what a call applied is exactly
   what was waiting before it followed by what was emitted during it, in channel order.  For every app,
   every fuel, every core state (no reachability assumption). *)
Theorem C03_pipeline_only_grows : forall fuel0 fuel hs k k',
  process fuel0 fuel hs k = Some k' -> extends (pipeline k) (pipeline k').
Proof. exact process_pipeline. Qed.
Theorem C03_executor_only_appends_to_channel : forall fuel0 fuel k k',
  run_all fuel0 fuel k = Some k' -> extends (pipeline k) (pipeline k').
Proof. intros fuel0 fuel k k' E. exact (pass_pipeline _ _ _ (proj1 (run_all_spec fuel0 fuel k k' E))). Qed.
Theorem C03_applied_in_channel_order : forall fuel0 fuel hs k k', process fuel0 fuel hs k = Some k' ->
  exists emitted, k_log k' = k_log k ++ k_events k ++ emitted.
Proof.
  intros fuel0 fuel hs k k' E. destruct (process_spec fuel0 fuel hs k k' E) as (_ & _ & [l El] & _ & _ & EV).
  unfold pipeline in El. rewrite EV, app_nil_r in El. exists l. rewrite El, app_assoc. reflexivity.
Qed.

(* Inside a command the same discipline, stated so that the model cannot drift from Stream::poll_next and
   CommandContext::send_event: an event is sent by appending it to the command's queue, and poll_next hands
   out exactly the HEAD of that queue (events before effects), removing it and nothing else. *)
Theorem C03_send_event_appends : forall c e H, c_evs (gcmd c (push_ev c e H)) = c_evs (gcmd c H) ++ [e].
Proof. intros c e H. unfold push_ev. rewrite gcmd_ucmd_same. reflexivity. Qed.
Theorem C03_poll_next_takes_the_head : forall F cid w H e H',
  rpoll_next (step_funs F) cid w H = Some (PNEvent e, H') ->
  exists H1 rest, rsettle F cid (ucmd cid (set_atomic (Some w)) H) = Some H1 /\
                  c_evs (gcmd cid H1) = e :: rest /\ H' = ucmd cid (set_evs rest) H1.
Proof.
  intros F cid w H e H' E. destruct (poll_next_inv F cid w H _ H' E) as (H1 & S1 & rest & E1 & E2).
  exists H1, rest. auto.
Qed.

(* The same pipeline discipline for apps written against the legacy capability API (update_app pushes to the same
   FIFO channel): applied ++ waiting only ever grows at its end, through any executor pass and the event loop. *)
From Crux Require Rt.Legacy Rt.LegacyProps.
Theorem C03_legacy_pipeline_only_grows : forall fuel hs k k', Legacy.lprocess fuel hs k = Some k' ->
  exists l, LegacyProps.lpipeline k' = LegacyProps.lpipeline k ++ l.
Proof. intros fuel hs k k' E. destruct (LegacyProps.lprocess_spec fuel hs k k' E) as (P & _). exact P. Qed.
Theorem C03_legacy_executor_only_appends : forall fuel k k', Legacy.lrun_all fuel k = Some k' ->
  Legacy.l_log k' = Legacy.l_log k /\ exists l, Legacy.l_events k' = Legacy.l_events k ++ l.
Proof. intros fuel k k' E. destruct (LegacyProps.lrun_all_spec fuel k k' E) as ((A & B & _) & _). split; [exact A | exact B]. Qed.

Theorem C03_legacy_log_ok : forall hs acts os, Legacy.under_legacy_core hs acts = Some os -> C03_log acts os [] = true.
Proof. exact LegacyProps.under_legacy_core_log_ok. Qed.

(* Every command's event queue (and effect queue) is a FIFO queue, at every nesting level and through EVERY function
   of the runtime - a poll of any task, Stream::poll_next of any command, run_until_settled, wakes, drop glue: the
   queue of every command changes only by losing elements at the front and gaining elements at the back
   (Rt/Fifo.v, an instance of the primitive-aware frame principle Rt/Frame2.v).  So events are never reordered or
   inserted out of order on any hop between the emitting task and the core's channel ... *)
Theorem C03_queues_are_fifo_through_settle : forall fuel cid H H' c, Rt.settle fuel cid H = Some H' ->
  Fifo.fifo (c_evs (gcmd c H)) (c_evs (gcmd c H')) /\ Fifo.fifo (c_eff (gcmd c H)) (c_eff (gcmd c H')).
Proof. intros fuel cid H H' c E. exact (Fifo.fifo_settle fuel cid H H' E c). Qed.
Theorem C03_queues_are_fifo_through_poll_next : forall fuel cid w H r H' c, poll_next fuel cid w H = Some (r, H') ->
  Fifo.fifo (c_evs (gcmd c H)) (c_evs (gcmd c H')) /\ Fifo.fifo (c_eff (gcmd c H)) (c_eff (gcmd c H')).
Proof. intros fuel cid w H r H' c E. exact (Fifo.fifo_poll_next fuel cid w H r H' E c). Qed.
Theorem C03_queues_are_fifo_through_a_poll : forall fuel c0 w fs H r H' c, poll fuel c0 w fs H = Some (r, H') ->
  Fifo.fifo (c_evs (gcmd c H)) (c_evs (gcmd c H')) /\ Fifo.fifo (c_eff (gcmd c H)) (c_eff (gcmd c H')).
Proof. intros fuel c0 w fs H r H' c E. exact (Fifo.fifo_poll fuel c0 w fs H r H' E c). Qed.
(* ... and what Stream::poll_next hands to the host is the element at the HEAD of the queue after settling (events
   before effects), and exactly that element leaves the queue. *)
Theorem C03_poll_next_hands_over_the_head : forall fuel cid w H r H',
  poll_next (S fuel) cid w H = Some (r, H') ->
  exists H1, settle fuel cid (ucmd cid (set_atomic (Some w)) H) = Some H1 /\
    match r with
    | PNEvent e => exists rest, c_evs (gcmd cid H1) = e :: rest /\ H' = ucmd cid (set_evs rest) H1
    | PNEffect e => exists rest, c_evs (gcmd cid H1) = [] /\ c_eff (gcmd cid H1) = e :: rest /\ H' = ucmd cid (set_eff rest) H1
    | _ => c_evs (gcmd cid H1) = [] /\ c_eff (gcmd cid H1) = []
    end.
Proof. exact Fifo.poll_next_hands_over_the_head. Qed.

(* ... and the hosting future appends exactly that event (through its event mapping) to the BACK of its own command's
   queue, once, and polls again: one hop of the way up keeps the order. *)
Theorem C03_host_appends_the_event_once_and_polls_again : forall f c w fs H x meff mev k e H1,
  f_leaf fs = LHost x meff mev k -> poll_next f x w H = Some (PNEvent e, H1) ->
  poll (S f) c w fs H = poll f c w fs (push_ev c (map_ev mev e) H1) /\
  c_evs (gcmd c (push_ev c (map_ev mev e) H1)) = c_evs (gcmd c H1) ++ [map_ev mev e].
Proof.
  intros f c w fs H x meff mev k e H1 EL E. split; [eapply Fifo.host_hop_event; eassumption | apply C03_send_event_appends].
Qed.
(* ... and at the top the executor task moves it, in the same way, to the back of the core's event channel, whose
   pipeline only grows at its end (C03_pipeline_only_grows). *)
From Crux Require Rt.CoreOrd.
Theorem C03_executor_task_moves_the_event_to_the_back_of_the_channel : forall FUEL f q k cid e H1,
  xget q (k_slab k) = Some cid -> poll_next FUEL cid (WExec q) (k_H k) = Some (PNEvent e, H1) ->
  xrun_task FUEL (S f) q k = xrun_task FUEL f q (mkC H1 (k_spawn k) (k_slab k) (k_events k ++ [e]) (k_out k) (k_log k) (k_reqs k)).
Proof. exact CoreOrd.xrun_task_moves_event. Qed.

(* NOT proved (carried by the correspondence: the runtime model's traces, which fix the order of every log,
   are compared with the implementation's on every generated case): that two events emitted by ONE task deep
   inside nested commands keep their order on the whole way up to the core's channel.  Stating it needs the
   identity of the emitting task on every event, which the model's events do not carry; the theorems
   above are the per-queue facts (every queue on the way is FIFO through every runtime function, a hop takes the
   head and appends at the tail, the core's pipeline only grows at its end) it would be assembled from. *)

Example C03_nonvacuous :
  under_core FUEL0 [(1, CAll [c_event 2 5; c_event 3 6]); (2, c_event 4 7)] [AEvent 1 0]
  = Some [OCall 0 [] [mkEv 1 0 []; mkEv 2 5 []; mkEv 3 6 []; mkEv 4 7 []]].
Proof. vm_compute. reflexivity. Qed.
