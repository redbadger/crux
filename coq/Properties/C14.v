(* C14 - an HTTP request reaches the shell exactly as the app described it.

   A description is an entry point (URL, method) and the list of calls [ops] the app makes on the
   request builder / request.  The command API and the capability API end in the same Client::send, so
   one model serves both: [send_cap], where a per-request middleware makes further calls, is [send_cmd] on
   the concatenated calls ([C14_same_both_apis]); the other theorems speak of [send_cmd].  Every theorem is for ALL
   descriptions and ALL oracles: [url_ok]/[url_str] (the `url` crate) and [iter_order] (the header hash
   map's iteration order, any rearrangement). *)
From Coq Require Import List NArith Bool Permutation.
From Crux Require Import Base.Res HttpReq.Model HttpReq.ModelProofs.
Import ListNotations.
Open Scope N_scope.

(* Full statement: whatever the app describes, the observation satisfies the trace predicate in its
   [full] reading (an explicit content type wins, otherwise the documented type of the body that is
   sent): one request with the described method, URL, body and per-name header values, or an explicit
   rejection with nothing sent when the description is malformed. *)
Definition C14_full_statement : Prop :=
  forall url_ok url_str iter_order, (forall m, Permutation (iter_order m) m) ->
  forall method ops,
    C14_ok true method url_ok url_str ops (obs_of_res (send_cmd url_ok url_str iter_order method ops)) = true.

(* Proved part: every description that does not set bodies of two different kinds. *)
Theorem C14_fidelity_partial :
  forall url_ok url_str iter_order, (forall m, Permutation (iter_order m) m) ->
  forall method ops, known_rebody ops = false ->
    C14_ok true method url_ok url_str ops (obs_of_res (send_cmd url_ok url_str iter_order method ops)) = true.
Proof. intros. apply model_ok; auto. Qed.

(* ... and the full statement is false of the faithful model: body_string then body_json leaves
   `content-type: text/plain;charset=utf-8` on a JSON body (http-types copies a body's MIME type only
   when no content type is present).  KNOWN_FINDINGS.txt class body_replaced_keeps_first_mime. *)
Theorem C14_content_type_of_replaced_body_refuted :
  known_rebody sticky_witness = true /\
  send_cmd true (fun _ => []) (fun m => m) [80;79;83;84] sticky_witness
    = Ok [{| q_method := [80;79;83;84]; q_url := []; q_headers := [(CT, mime_of MPlain)]; q_body := [49] |}] /\
  spec_vals true CT sticky_witness = [mime_of MJson] /\
  C14_ok true [80;79;83;84] true (fun _ => []) sticky_witness
    (obs_of_res (send_cmd true (fun _ => []) (fun m => m) [80;79;83;84] sticky_witness)) = false.
Proof. vm_compute. repeat split. Qed.

(* With the content type read as http-types implements it (the type implied by the first body
   sticks) the statement holds of every description, no exception. *)
Theorem C14_fidelity_sticky :
  forall url_ok url_str iter_order, (forall m, Permutation (iter_order m) m) ->
  forall method ops,
    C14_ok false method url_ok url_str ops (obs_of_res (send_cmd url_ok url_str iter_order method ops)) = true.
Proof. intros. apply model_ok; [assumption|discriminate]. Qed.

(* The same as a proposition about the emitted request: exactly one, with the described method, URL
   (the oracle's serialisation with the last described query), body (the last described body) and, for
   EVERY name, exactly the described values in order; all names on the wire are lower-case.  The content
   type is read as http-types leaves it ([described false]); [C14_emitted_request_full] has the reading
   of the full statement, for bodies of one kind. *)
Theorem C14_emitted_request :
  forall url_ok url_str iter_order, (forall m, Permutation (iter_order m) m) ->
  forall method ops l, send_cmd url_ok url_str iter_order method ops = Ok l ->
    exists r, l = [r] /\ described false method url_str ops r /\
              Forall (fun h => lower (fst h) = fst h) (q_headers r).
Proof.
  intros url_ok url_str io P method ops l H.
  destruct (send_cmd_described url_ok url_str io P false method ops l) as [r [Hl Hd]]; [discriminate|exact H|].
  eauto using described_names_lower.
Qed.

Theorem C14_emitted_request_full :
  forall url_ok url_str iter_order, (forall m, Permutation (iter_order m) m) ->
  forall method ops l, known_rebody ops = false -> send_cmd url_ok url_str iter_order method ops = Ok l ->
    exists r, l = [r] /\ described true method url_str ops r.
Proof. intros url_ok url_str io P method ops l Hk. apply send_cmd_described; auto. Qed.

Theorem C14_once :
  forall url_ok url_str iter_order method ops l,
    send_cmd url_ok url_str iter_order method ops = Ok l -> length l = 1%nat.
Proof.
  intros url_ok url_str io method ops l H. pose proof (send_cmd_cases url_ok url_str io method ops) as Hc.
  destruct (desc_outcome url_ok ops); [destruct Hc as [r [_ Hs]]|destruct Hc|]; try congruence.
  rewrite Hs in H. injection H as <-. reflexivity.
Qed.
Theorem C14_accepted_sends_once :
  forall url_ok url_str iter_order method ops, desc_outcome url_ok ops = Sent ->
    exists r, send_cmd url_ok url_str iter_order method ops = Ok [r].
Proof.
  intros url_ok url_str io method ops H. pose proof (send_cmd_cases url_ok url_str io method ops) as Hc.
  rewrite H in Hc. destruct Hc as [r [_ Hs]]. eauto.
Qed.
Theorem C14_malformed_sends_nothing :
  forall url_ok url_str iter_order method ops, desc_outcome url_ok ops <> Sent ->
    forall l, send_cmd url_ok url_str iter_order method ops <> Ok l.
Proof.
  intros url_ok url_str io method ops H l. pose proof (send_cmd_cases url_ok url_str io method ops) as Hc.
  destruct (desc_outcome url_ok ops); [|destruct Hc|]; congruence.
Qed.

Theorem C14_nothing_added :
  forall full method url_str ops r n v, described full method url_str ops r ->
    In (n, v) (q_headers r) -> In n (mentioned ops) /\ In v (spec_vals full n ops).
Proof. exact described_nothing_added. Qed.

(* both APIs, both stages: a request described by builder calls and then by calls on the Request
   itself (from a per-request middleware) is the request of the concatenated description *)
Theorem C14_same_both_apis :
  forall url_ok url_str iter_order method ops1 ops2,
    send_cap url_ok url_str iter_order method ops1 ops2 = send_cmd url_ok url_str iter_order method (ops1 ++ ops2).
Proof. exact send_cap_cmd. Qed.

(* the same statement as C11.C11_http_request_order_independent: both properties need it *)
Theorem C14_order_independent :
  forall url_ok url_str o1 o2 method ops,
    (forall m, Permutation (o1 m) m) -> (forall m, Permutation (o2 m) m) ->
    send_cmd url_ok url_str o1 method ops = send_cmd url_ok url_str o2 method ops.
Proof. exact send_cmd_order_free. Qed.

(* what the trace predicate means when it is evaluated on ANY observation, the implementation's
   included: the property itself *)
Theorem C14_ok_sound_sent :
  forall full method url_ok url_str ops l, C14_ok full method url_ok url_str ops (ObsSent l) = true ->
    desc_outcome url_ok ops = Sent /\ exists r, l = [r] /\ described full method url_str ops r.
Proof.
  intros full method url_ok url_str ops l H. apply C14_ok_spec in H.
  destruct (desc_outcome url_ok ops); try discriminate. destruct H as [r [[= ->] Hd]]. eauto.
Qed.
Theorem C14_ok_sound_rejected :
  forall full method url_ok url_str ops o, C14_ok full method url_ok url_str ops o = true ->
    desc_outcome url_ok ops <> Sent ->
    (o = ObsRefused /\ desc_outcome url_ok ops = Refused) \/ (o = ObsPanic /\ desc_outcome url_ok ops = Panicked).
Proof.
  intros full method url_ok url_str ops o H Hn. apply C14_ok_spec in H.
  destruct (desc_outcome url_ok ops); [congruence|left|right]; auto.
Qed.

(* non-vacuity: a description with mixed-case repeated names, an appended value, a removed name, a
   query and a body is accepted, is outside the known class, and its one request is as described *)
Example C14_nonvacuous :
  let ops := [OHeader [65;99] [[49]]; OAppend [97;67] [[50];[51]]; OHeader [88] [[52]]; ORemove [120];
              OQuery (Some [113]); OBody MJson (Some [123;125])] in
  desc_outcome true ops = Sent /\ known_rebody ops = false /\
  send_cmd true (fun q => match q with Some x => 47 :: 63 :: x | None => [47] end) (fun m => rev m) [71;69;84] ops
    = Ok [{| q_method := [71;69;84]; q_url := [47;63;113];
             q_headers := [([97;99], [49]); ([97;99], [50]); ([97;99], [51]); (CT, mime_of MJson)];
             q_body := [123;125] |}].
Proof. vm_compute. repeat split. Qed.
