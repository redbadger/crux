(* C19 - time values convert exactly or are rejected explicitly. *)
From Coq Require Import List ZArith Bool Lia.
From Crux Require Import Base.Res Time.Conv Time.ConvProofs.
Import ListNotations.
Open Scope Z_scope.

(* Full statement: for every conversion and every input constructible in the source type, the
   model returns exactly the denoted value when it is representable in the target type and rejects
   (error value or documented panic) when it is not. *)
Definition C19_full_statement : Prop :=
  forall op a b, valid_in op a b = true -> C19_ok op a b (conv op a b) = true.

(* Proved part: everything outside the one listed class (an Instant carrying nanos >= 1e9, which
   only unvalidated deserialisation can create). *)
Theorem C19_exact_or_rejected_partial : forall op a b,
  valid_in op a b = true -> known_invalid_nanos op a b = false ->
  C19_ok op a b (conv op a b) = true.
Proof. exact model_ok. Qed.

(* The full statement is false of the faithful model; the witness is replayed on the code. *)
Theorem C19_invalid_nanos_refuted :
  exists s ns, valid_in OInstantDeser s ns = true /\ spec OInstantDeser s ns = None /\
    instant_deser s ns = Ok (s, ns) /\ systime_of_instant s ns = Ok (3, 0).
Proof. exists 1, 2000000000. vm_compute. repeat split. Qed.

Theorem C19_std_duration_roundtrip : forall n, 0 <= n < U64 ->
  bind (std_of_dur n) (fun p => dur_of_std (fst p) (snd p)) = Ok n.
Proof.
  intros n Hn. cbn [std_of_dur bind fst snd]. unfold dur_of_std.
  rewrite Z.mul_comm, <- Z.div_mod by discriminate. now rewrite (proj2 (Z.ltb_lt n U64)).
Qed.

Theorem C19_duration_std_roundtrip : forall s ns, 0 <= s -> 0 <= ns < NPS -> s * NPS + ns < U64 ->
  bind (dur_of_std s ns) std_of_dur = Ok (s, ns).
Proof.
  intros s ns _ Hns Hlt. unfold dur_of_std. rewrite (proj2 (Z.ltb_lt _ _) Hlt). cbn [bind]. unfold std_of_dur.
  now destruct (total_div_mod s ns Hns) as [-> ->].
Qed.

Theorem C19_std_duration_overflow_rejected : forall s ns, 0 <= s -> 0 <= ns < NPS ->
  U64 <= s * NPS + ns -> dur_of_std s ns = Panic.
Proof. intros s ns _ _ H. unfold dur_of_std. now rewrite (proj2 (Z.ltb_ge _ _) H). Qed.

Theorem C19_timedelta_roundtrip : forall n, 0 <= n < U64 ->
  bind (timedelta_of_dur n) dur_of_timedelta = Ok n.
Proof.
  intros n Hn. unfold timedelta_of_dur. rewrite (proj2 (Z.leb_le n TD_MAX)) by (unfold_bounds; lia). cbn [bind]. unfold dur_of_timedelta.
  now rewrite (proj2 (Z.ltb_ge n 0)), (proj2 (Z.ltb_lt n U64)).
Qed.

Theorem C19_timedelta_negative_rejected : forall t, t < 0 -> dur_of_timedelta t = Err E_InvalidDuration.
Proof. intros t H. unfold dur_of_timedelta. now rewrite (proj2 (Z.ltb_lt _ _) H). Qed.

Theorem C19_systemtime_roundtrip : forall s ns, 0 <= s <= I64MAX -> 0 <= ns < NPS ->
  bind (instant_of_systime s ns) (fun p => systime_of_instant (fst p) (snd p)) = Ok (s, ns).
Proof.
  intros s ns Hs Hns. unfold instant_of_systime. rewrite (proj2 (Z.ltb_ge s 0)) by apply Hs. cbn [bind fst snd].
  now rewrite systime_small, (proj2 (Z.leb_le s I64MAX)).
Qed.

Theorem C19_datetime_roundtrip : forall s ns, 0 <= s <= TS_MAX -> 0 <= ns < NPS ->
  bind (datetime_of_instant s ns) (fun p => instant_of_datetime (fst p) (snd p)) = Ok (s, ns).
Proof.
  intros s ns Hs Hns. rewrite datetime_small, (proj2 (Z.leb_le s TS_MAX)) by tauto. cbn [bind fst snd]. unfold instant_of_datetime.
  now rewrite (proj2 (Z.ltb_ge s 0)), (proj2 (Z.leb_gt NPS ns)).
Qed.

(* non-vacuity: the hypotheses are met by concrete boundary inputs of several conversions *)
Example C19_nonvacuous :
  valid_in ODurOfStd 18446744073 709551615 = true /\ known_invalid_nanos ODurOfStd 18446744073 709551615 = false /\
  valid_in OInstantOfDt 1483228799 1999999999 = true /\ valid_in ODurOfTd (-5) 0 = true.
Proof. vm_compute. repeat split. Qed.
