(* C08 - concurrent shells lose nothing.

   Models, in the order of the theorems below: Conc/Slots.v (P1 executor slot protocol,
   capability/executor.rs), Conc/Waker.v (P2 waker / eviction protocol, command/executor.rs),
   Conc/Events.v (P3 event application, core/mod.rs): small-step interleaving semantics, sequentially
   consistent, one label per atomic shared access (a mutex / RwLock region is one step), a
   program counter per thread, thread / task / clone tables indexed by nat (any number of each).
   [reachable s] = some sequence of labels (an interleaving) leads from [init] to [s]; every
   theorem below over [reachable] is for ALL reachable states, by an inductive invariant over the step
   relation in Conc/*Proofs.v (no enumeration, no bound); those that begin with [exists s] run one schedule.

   Not claimed (and not what the property asks): that the effects one call returns were caused
   by that call's input (return values are not linearisable); anything about weak memory (the
   models are SC; `Arc::strong_count` is a Relaxed load and the fix f031043 adds an Acquire
   fence for that reason); termination of the re-queue loop on `Unavailable` (liveness). *)
From Coq Require Import List Arith Bool.
From Crux Require Conc.Waker Conc.WakerProofs Conc.Events Conc.EventsProofs Conc.Slots Conc.SlotsProofs.
Import ListNotations.

(* a task is polled by at most one thread at a time *)
Theorem C08_single_poller : forall s, Slots.reachable s -> forall t1 t2 fs1 fs2 k,
  Slots.pcs s t1 = Slots.Polling fs1 k -> Slots.pcs s t2 = Slots.Polling fs2 k -> t1 = t2.
Proof.
  intros s Hr t1 t2 fs1 fs2 k H1 H2.
  destruct (SlotsProofs.i_poll s (SlotsProofs.inv_reachable s Hr) t2 fs2 k H2) as [_ Hu]. eauto.
Qed.

Theorem C08_polled_slot_is_taken : forall s, Slots.reachable s -> forall t fs k,
  Slots.pcs s t = Slots.Polling fs k -> Slots.slots s k = Slots.STaken.
Proof. intros s Hr t fs k H. apply (SlotsProofs.i_poll s (SlotsProofs.inv_reachable s Hr) t fs k H). Qed.

(* no lost wake: [pend s k] says that an id k was sent to the ready queue and that since then no
   poll of slot k has started and no runner has found the slot vacant (task completed).  Such an
   id is still in the ready queue or held by a thread that is about to run it or to re-queue it. *)
Theorem C08_no_lost_wake : forall s, Slots.reachable s -> forall k, Slots.pend s k = true ->
  In k (Slots.ready s) \/ exists t, Slots.holds (Slots.pcs s t) k.
Proof. intros s Hr. apply (SlotsProofs.i_pend s (SlotsProofs.inv_reachable s Hr)). Qed.

(* when every call has returned both queues and the effect channel are empty, and every wake-up
   ever sent has been followed by a poll that started after it (or the task was gone) *)
Theorem C08_quiescent_at_join : forall s, Slots.reachable s -> Slots.all_returned s ->
  Slots.ready s = [] /\ Slots.spawnq s = 0 /\ Slots.effs s = [] /\ forall k, Slots.pend s k = false.
Proof. exact SlotsProofs.quiescent_at_join. Qed.

(* each effect is in the channel or was returned by exactly one drain; none is duplicated *)
Theorem C08_effect_once : forall s, Slots.reachable s ->
  map snd (Slots.rets s) ++ Slots.effs s = Slots.emitted s /\ NoDup (Slots.emitted s).
Proof. intros s Hr. pose proof (SlotsProofs.inv_reachable s Hr) as [_ _ _ _ _ Ht Hn]. auto. Qed.

Theorem C08_effects_returned_exactly_once : forall s, Slots.reachable s -> Slots.all_returned s ->
  map snd (Slots.rets s) = Slots.emitted s /\ NoDup (map snd (Slots.rets s)).
Proof.
  intros s Hr Hall. destruct (C08_effect_once s Hr) as [Ht Hn].
  destruct (C08_quiescent_at_join s Hr Hall) as [_ [_ [He _]]]. rewrite He, app_nil_r in Ht.
  rewrite Ht. auto.
Qed.

Theorem C08_effects_ok_sound : forall s, Slots.reachable s -> Slots.all_returned s ->
  Slots.C08_effects_ok (Slots.emitted s) (map snd (Slots.rets s)) = true.
Proof.
  intros s Hr Hall. destruct (C08_effects_returned_exactly_once s Hr Hall) as [He Hn].
  unfold Slots.C08_effects_ok. rewrite He. apply andb_true_intro. split; apply forallb_forall; intros e Hin.
  - apply Nat.eqb_eq. apply SlotsProofs.count_nodup; auto. rewrite <- He. exact Hn.
  - apply SlotsProofs.mem_in. exact Hin.
Qed.

(* non-vacuity: the contended path (Unavailable, re-queue, second runner polls) is reachable *)
Example C08_nonvacuous_contended : exists s, Slots.run SlotsProofs.contended Slots.init = Some s /\
  Slots.pcs s 1 = Slots.Polling false 0 /\ Slots.pcs s 0 = Slots.SpawnLoop true /\ Slots.slots s 0 = Slots.STaken /\ Slots.pend s 0 = false.
Proof. exact SlotsProofs.contended_reachable. Qed.

(* The code before f031043 (woken.load(), then Arc::strong_count()) evicts a task whose wake-up has
   been sent: the four steps of the waking thread fall between the runner's two loads. *)
Theorem C08_evict_refuted : exists s, Waker.run Waker.WokenFirst WakerProofs.witness Waker.init = Some s /\
  Waker.r s = Waker.RDone Waker.Cancelled /\ Waker.sends s = 1 /\ Waker.woken s = true /\
  Waker.ld_woken s = Some false /\ Waker.ld_count s = Some 1.
Proof. exact WakerProofs.evict_refuted_woken_first. Qed.

(* The order since f031043 (Arc::strong_count(), then woken.load()): in every reachable state of every
   interleaving, with any number of clones and waking threads, an evicted task was never sent a
   wake-up through this generation and no clone of its waker is left. *)
Theorem C08_evict_safe : forall s, Waker.reachable Waker.CountFirst s ->
  Waker.r s = Waker.RDone Waker.Cancelled -> Waker.sends s = 0 /\ Waker.live (Waker.hs s) = 0 /\ Waker.own s = false.
Proof. exact WakerProofs.evict_safe_count_first. Qed.

(* ... and nothing can happen in that generation afterwards: no label is enabled *)
Theorem C08_evicted_is_final : forall s l, Waker.reachable Waker.CountFirst s -> Waker.r s = Waker.RDone Waker.Cancelled ->
  Waker.step Waker.CountFirst l s = None.
Proof.
  intros s l Hr Hd. destruct (C08_evict_safe s Hr Hd) as (_ & Hl & Ho).
  destruct (Waker.step Waker.CountFirst l s) as [s'|] eqn:Hst; [exfalso|reflexivity].
  destruct (WakerProofs.holder_of l) as [h|] eqn:Hh.
  - exact (proj1 (WakerProofs.holder_step _ _ _ _ _ Hh Hst) (conj Ho Hl)).
  - destruct l; try discriminate Hh; simpl in Hst; rewrite Hd in Hst; discriminate.
Qed.

(* count = 1 + the runner's handle + undropped clones, for either order *)
Theorem C08_count_is_one_plus_clones : forall o s, Waker.reachable o s ->
  Waker.count s = 1 + WakerProofs.b2n (Waker.own s) + Waker.live (Waker.hs s).
Proof. intros o s [ls Hr]. apply (WakerProofs.inv_run o ls Waker.init s WakerProofs.inv_init Hr). Qed.

(* no false retention at the protocol level: an abandoned pending task is evicted *)
Theorem C08_evicts_abandoned : forall o s, Waker.reachable o s -> Waker.r s = Waker.RPolled true -> Waker.woken s = false ->
  Waker.live (Waker.hs s) = 0 ->
  exists s', Waker.run o [Waker.RDropOwn; Waker.RLoad1; Waker.RLoad2] s = Some s' /\ Waker.r s' = Waker.RDone Waker.Cancelled.
Proof. exact WakerProofs.evicts_abandoned. Qed.

(* the interleaving that refutes [WokenFirst] is harmless under [CountFirst] *)
Theorem C08_refuted_schedule_harmless_after_fix : exists s, Waker.run Waker.CountFirst WakerProofs.witness Waker.init = Some s /\
  Waker.r s = Waker.RDone Waker.Suspended /\ Waker.ld_woken s = Some true /\ Waker.ld_count s = Some 2.
Proof. eexists. split; [vm_compute; reflexivity|]. repeat split. Qed.

(* the outcome predicate evaluated on implementation traces holds of every run of the model in [CountFirst] order *)
Theorem C08_evict_ok_sound : forall s, Waker.reachable Waker.CountFirst s ->
  Waker.C08_evict_ok (Waker.obs_decision s) (Waker.sends s) = true.
Proof.
  intros s Hr. unfold Waker.C08_evict_ok, Waker.obs_decision.
  destruct (Waker.r s) eqn:Er; simpl; auto. destruct d; simpl; auto.
  destruct (C08_evict_safe s Hr Er) as [Hs _]. rewrite Hs. reflexivity.
Qed.

(* The code before f11977b (receive(), then model.write()): two callers take E(1,0) and E(1,1), sent in
   that order by one task, and apply them in the opposite order. *)
Theorem C08_event_order_refuted : exists s, Events.run Events.PopThenLock EventsProofs.witness Events.init = Some s /\
  Events.pcs s 0 = Events.TIdle /\ Events.pcs s 1 = Events.TIdle /\ Events.chan s = [] /\
  Events.log s = [Events.Direct 0; Events.Direct 1; Events.Emitted 1 1; Events.Emitted 1 0] /\
  Events.proj 1 (Events.log s) = [1; 0] /\ Events.proj 1 (Events.log s) <> seq 0 (Events.nxt s 1).
Proof.
  eexists. split; [vm_compute; reflexivity|]. simpl. repeat split; try reflexivity. discriminate.
Qed.

(* The code since f11977b (model.write(), then receive()): at every reachable state the log followed
   by the queued events is, for every task, exactly the events it has sent, in the order sent:
   the log is an interleaving of the per-task emission sequences. *)
Theorem C08_event_order : forall s, Events.reachable Events.PopUnderLock s ->
  forall k, Events.proj k (Events.log s ++ Events.chan s) = seq 0 (Events.nxt s k).
Proof. intros s Hr. apply (EventsProofs.i_order s (EventsProofs.inv_reachable s Hr)). Qed.

(* conservation: what a task has sent is what has been applied plus what is queued; nothing is
   ever held outside the channel and the log (sampled on the implementation's intermediate states
   by the gated runs) *)
Theorem C08_event_conservation : forall s, Events.reachable Events.PopUnderLock s ->
  forall k, length (Events.proj k (Events.log s)) + length (Events.proj k (Events.chan s)) = Events.nxt s k.
Proof.
  intros s Hr k. pose proof (C08_event_order s Hr k) as H.
  apply (f_equal (@length nat)) in H. rewrite EventsProofs.proj_app, app_length, seq_length in H. exact H.
Qed.

Theorem C08_events_quiescent : forall s, Events.reachable Events.PopUnderLock s ->
  (forall t, Events.pcs s t = Events.TIdle) -> Events.chan s = [].
Proof.
  intros s Hr Hidle. destruct (Events.chan s) eqn:Ec; auto.
  destruct (EventsProofs.i_busy s (EventsProofs.inv_reachable s Hr)) as [t Ht]; [congruence|]. elim Ht. apply Hidle.
Qed.

(* when every call has returned: every event any task sent has been applied exactly once, in
   the order that task sent them *)
Theorem C08_events_exactly_once_in_order : forall s, Events.reachable Events.PopUnderLock s ->
  (forall t, Events.pcs s t = Events.TIdle) -> forall k, Events.proj k (Events.log s) = seq 0 (Events.nxt s k).
Proof.
  intros s Hr Hidle k. pose proof (C08_event_order s Hr k) as H.
  rewrite (C08_events_quiescent s Hr Hidle), app_nil_r in H. exact H.
Qed.

(* view() shows the model after a prefix of the log *)
Theorem C08_view_consistent : forall s, Events.reachable Events.PopUnderLock s ->
  forall n v, In (n, v) (Events.views s) -> v = firstn n (Events.log s) /\ n <= length (Events.log s).
Proof. intros s Hr. apply (EventsProofs.i_views s (EventsProofs.inv_reachable s Hr)). Qed.

(* so for any update function the value it shows is the fold of update over that prefix *)
Theorem C08_view_is_fold_of_prefix : forall (M : Type) (update : M -> Events.ev -> M) (m0 : M) s,
  Events.reachable Events.PopUnderLock s -> forall n v, In (n, v) (Events.views s) ->
  fold_left update v m0 = fold_left update (firstn n (Events.log s)) m0.
Proof. intros M update m0 s Hr n v Hin. destruct (C08_view_consistent s Hr n v Hin) as [-> _]. reflexivity. Qed.

Theorem C08_log_ok_sound : forall s, Events.reachable Events.PopUnderLock s -> (forall t, Events.pcs s t = Events.TIdle) ->
  forall ks, Events.C08_log_ok (map (fun k => (k, Events.nxt s k)) ks) (Events.log s) = true.
Proof.
  intros s Hr Hidle ks. unfold Events.C08_log_ok. apply forallb_forall. intros [k n] Hin.
  apply in_map_iff in Hin as [k' [Heq _]]. inversion Heq; subst. simpl.
  rewrite (C08_events_exactly_once_in_order s Hr Hidle k).
  generalize (seq 0 (Events.nxt s k)). induction l as [|x l IH]; simpl; auto. rewrite Nat.eqb_refl. exact IH.
Qed.

(* the closest [PopUnderLock] run to the refuting calls applies the events in order *)
Theorem C08_refuted_calls_in_order_after_fix : exists s, Events.run Events.PopUnderLock EventsProofs.witness_fixed Events.init = Some s /\
  Events.log s = [Events.Direct 0; Events.Direct 1; Events.Emitted 1 0; Events.Emitted 1 1].
Proof. eexists. split; [vm_compute; reflexivity|]. reflexivity. Qed.

