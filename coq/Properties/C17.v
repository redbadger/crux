(* C17 - key-value operations and results pass through unaltered.
   Model: coq/Wire/Kv.v (crux_kv both APIs, unwrap_*, Value conversions, image in the wire schema). *)
From Coq Require Import String List ZArith NArith Bool.
From Crux Require Import Wire.Codec Wire.Kv Wire.KvCases Wire.KvProofs.
From Crux Require Import Gen.Registry_protocol Gen.Registry_kvapp.
Import ListNotations.

(* Each call emits exactly one operation, the one that says what the call said; the call can be read
   back from it, so key, value, prefix and cursor are carried unchanged and no two calls share an
   operation. *)
Theorem C17_operation : forall a c,
  emit a c = [op_of_call c] /\ call_of_op (op_of_call c) = c /\ op_kind (op_of_call c) = call_kind c.
Proof. intros a c. repeat split; [apply emit_one|apply call_of_op_of_call|now destruct c]. Qed.

Theorem C17_operation_injective : forall a c1 c2, emit a c1 = emit a c2 -> c1 = c2.
Proof. intros a c1 c2 H. rewrite !emit_one in H. injection H as H. apply (f_equal call_of_op) in H. now rewrite !call_of_op_of_call in H. Qed.

(* For the matching response kind the app receives the shell's payload unchanged ... *)
Theorem C17_response : forall a c r,
  response_kind r = call_kind c -> deliver a c (KOk r) = Delivered (payload_of_response r).
Proof. intros a c r H. rewrite deliver_expected. cbn [expected]. rewrite H. now destruct (kind_eqb_spec (call_kind c) (call_kind c)). Qed.

(* ... in particular what the shell meant to report (a payload) is exactly what arrives, *)
Theorem C17_response_payload : forall a c p r,
  response_of_payload (call_kind c) p = Some r -> deliver a c (KOk r) = Delivered p.
Proof. intros a c p r H. apply payload_response in H as [K <-]. now apply C17_response. Qed.

(* two different responses of the expected kind never look the same to the app: absent vs empty,
   every byte of a value, every key of a page and the cursor are preserved *)
Theorem C17_response_injective : forall a c r1 r2,
  response_kind r1 = call_kind c -> response_kind r2 = call_kind c ->
  deliver a c (KOk r1) = deliver a c (KOk r2) -> r1 = r2.
Proof.
  intros a c r1 r2 K1 K2 H. rewrite !C17_response in H by assumption. injection H as H.
  pose proof (response_payload r1) as E. rewrite K1, <- K2, H, response_payload in E. now injection E.
Qed.

Theorem C17_absent_is_not_empty : forall a k,
  deliver a (CGet k) (KOk (RGet KNone)) = Delivered (PData None) /\
  deliver a (CGet k) (KOk (RGet (KBytes []))) = Delivered (PData (Some [])) /\
  deliver a (CGet k) (KOk (RGet KNone)) <> deliver a (CGet k) (KOk (RGet (KBytes []))).
Proof. intros a k. split; [reflexivity|split; [reflexivity|discriminate]]. Qed.

(* shell-reported errors are passed through unchanged *)
Theorem C17_error : forall a c e, deliver a c (KErr e) = Failed e.
Proof. intros a c e. apply deliver_expected. Qed.

(* a response of another kind is reported to the app as an error value naming what was expected
   (since fix e5ed299; crux_kv used to panic here), and never yields a value *)
Theorem C17_mismatch_is_an_error : forall a c r,
  response_kind r <> call_kind c -> deliver a c (KOk r) = Failed (mismatch_error (call_kind c)).
Proof. exact deliver_mismatch. Qed.

(* crux_kv never panics, whatever the shell answers *)
Theorem C17_total : forall a c r, deliver a c r <> Panicked.
Proof. exact deliver_total. Qed.

(* every outcome has exactly one origin *)
Theorem C17_outcomes : forall a c r,
  match deliver a c r with
  | Delivered p => exists x, r = KOk x /\ response_kind x = call_kind c /\ p = payload_of_response x
  | Failed e => r = KErr e \/ (exists x, r = KOk x /\ response_kind x <> call_kind c /\ e = mismatch_error (call_kind c))
  | Panicked => False
  end.
Proof.
  intros a c r. rewrite deliver_expected. destruct r as [x|e]; cbn [expected]; [|now left].
  destruct (kind_eqb_spec (response_kind x) (call_kind c)); [|right]; exists x; auto.
Qed.

(* Value <-> Option<Vec<u8>> are mutually inverse; From<Vec<u8>> is Some *)
Theorem C17_value_iso : forall v o,
  value_of_option (option_of_value v) = v /\ option_of_value (value_of_option o) = o.
Proof. intros v o. split; [apply value_option_value|apply option_value_option]. Qed.
Theorem C17_value_of_vec : forall b, option_of_value (value_of_vec b) = Some b.
Proof. reflexivity. Qed.

(* the capability API and the command API emit and deliver the same *)
Theorem C17_same_both_apis : forall c r,
  emit Capability c = emit Command c /\ deliver Capability c r = deliver Command c r.
Proof. intros c r. split; [now rewrite !emit_one|reflexivity]. Qed.

(* Across the serialized bridge: every operation (valid UTF-8 strings, lengths within u64 - true of
   every Rust value) is a value of the regenerated schema type, and encode-then-decode is the
   identity on operations and on results (instances of C10_roundtrip on the regenerated kv schema,
   for the protocol registry and for the test app's registry) *)
Theorem C17_bridge_operation : forall o, op_ok o = true ->
  shell_reads Registry_protocol (bridge_out Registry_protocol o) = Some o /\
  shell_reads Registry_kvapp (bridge_out Registry_kvapp o) = Some o.
Proof.
  intros o H. split; [apply (bridge_op _ op_typed_protocol)|apply (bridge_op _ op_typed_kvapp)]; exact H.
Qed.

Theorem C17_bridge_result : forall r trailing, result_ok r = true ->
  bridge_in Registry_protocol (shell_writes Registry_protocol r ++ trailing) = Some r /\
  bridge_in Registry_kvapp (shell_writes Registry_kvapp r ++ trailing) = Some r.
Proof.
  intros r t H. split; [apply (bridge_result _ result_typed_protocol)|apply (bridge_result _ result_typed_kvapp)]; exact H.
Qed.

Theorem C17_bridge_injective : forall o1 o2 r1 r2,
  op_ok o1 = true -> op_ok o2 = true -> result_ok r1 = true -> result_ok r2 = true ->
  (bridge_out Registry_kvapp o1 = bridge_out Registry_kvapp o2 -> o1 = o2) /\
  (shell_writes Registry_kvapp r1 = shell_writes Registry_kvapp r2 -> r1 = r2).
Proof.
  intros o1 o2 r1 r2 H1 H2 H3 H4. split;
    [apply (bridge_out_inj _ op_typed_kvapp)|apply (shell_writes_inj _ result_typed_kvapp)]; assumption.
Qed.

(* the whole exchange over the bridge is the image of the typed exchange *)
Theorem C17_bridge_exchange : forall a c r, op_ok (op_of_call c) = true -> result_ok r = true ->
  exchange_bridge Registry_kvapp a c r =
  (map Some (fst (exchange_typed a c r)), Some (snd (exchange_typed a c r))).
Proof. exact (exchange_bridge_typed _ op_typed_kvapp result_typed_kvapp). Qed.

(* the trace predicate evaluated on the implementation's observations holds of the model, for every
   call and every response (matching, mismatching, error) *)
Theorem C17_ok_model : forall a c r,
  verdict_typed a c r (fst (exchange_typed a c r)) 0 (seen_of (snd (exchange_typed a c r))) = 0%N.
Proof.
  intros a c r. unfold verdict_typed, exchange_typed, C17_ok. cbn [fst snd]. rewrite emit_one.
  cbn [ops_eqb]. rewrite op_eqb_refl. cbn [andb N.eqb]. rewrite <- deliver_expected with (a := a). now rewrite seen_eqb_refl.
Qed.

Theorem C17_model_meets_spec : forall a c r, deliver a c r = expected c r.
Proof. exact deliver_expected. Qed.

Example C17_nonvacuous :
  op_ok (OSet (Cases.bytes_of_hex "6bc3a9") (Cases.bytes_of_hex "00ff")) = true /\
  result_ok (KOk (RListKeys [Cases.bytes_of_hex "61"; []] 18446744073709551615)) = true /\
  op_ok (OGet (Cases.bytes_of_hex "ff")) = false /\
  kv_effect_index Registry_kvapp = Some 1%N /\
  deliver Command (CSet [] []) (KOk (RGet KNone)) =
    Failed (EOther (Cases.bytes_of_hex "756e657870656374656420726573706f6e73653a20657870656374656420536574")).
Proof. vm_compute. repeat split. Qed.
