(* C06 - cancellation is final, contained, and safe against late responses. *)
From Coq Require Import List Arith Bool.
From Crux Require Import Rt.Lang Rt.Rt Rt.Host Rt.Check Rt.Frame Rt.Props Rt.Silent Rt.AbortTop Rt.Perm.
Import ListNotations.

(* Full statement (kept visible): after an abort / task abort / request drop, no output whose origin
   lies in the cancelled work is ever produced, an aborted command is done once its outputs are taken,
   siblings are unaffected, late resolutions neither panic nor have consequences. *)
Definition C06_full_statement : Prop :=
  forall fuel c acts os, direct fuel c acts = Some os -> C06_ok (false, false, c, [], acts, os) = true.

(* Final: once a command's abort flag is seen, it stays seen through every runtime step of every
   command (settle / poll_next on any command id), for every fuel and heap ... *)
Theorem C06_abort_permanent_settle : forall fuel cid' cid H H',
  cid < length (cmds H) -> settle fuel cid' H = Some H' -> was_aborted cid H = true -> was_aborted cid H' = true.
Proof. intros fuel cid' cid H H' Hc E. apply was_aborted_mono; [exact Hc|]. apply (frame_meta fuel) in E. exact E. Qed.
Theorem C06_abort_permanent_poll_next : forall fuel cid' w cid H r H',
  cid < length (cmds H) -> poll_next fuel cid' w H = Some (r, H') -> was_aborted cid H = true -> was_aborted cid H' = true.
Proof. intros fuel cid' w cid H r H' Hc E. apply was_aborted_mono; [exact Hc|]. apply (frame_meta fuel) in E. exact E. Qed.
(* ... and through further aborts *)
Theorem C06_abort_permanent_abort : forall n cid H, was_aborted cid H = true -> was_aborted cid (add_aborted n H) = true.
Proof.
  unfold was_aborted, add_aborted, gcmd; simpl. intros n cid H E.
  apply existsb_exists in E as (x & Hx & Ex). apply existsb_exists. exists x. split; [exact Hx|].
  simpl. rewrite Ex. apply orb_true_r.
Qed.

(* Never runs again: settling an aborted command does not call any of the runtime's recursive
   functions (no task of it is polled, no nested command of it is polled). *)
Theorem C06_aborted_never_polled : forall F G cid H,
  was_aborted cid H = true -> rsettle (step_funs F) cid H = rsettle (step_funs G) cid H.
Proof. intros F G cid H Hab. rewrite !Tables.rsettle_step, Hab. reflexivity. Qed.

(* Silent, at every nesting level: once a command X is aborted, no step of the runtime - settling or
   polling ANY command: X itself, the command hosting it, commands nested in it, siblings - ever adds an
   effect or an event to X's output queues; what is already there can only be taken or dropped.  For
   every fuel and every heap (no well-formedness assumption), for aborts raised by the shell or by a
   task of the command itself. *)
Theorem C06_aborted_outputs_only_shrink_settle : forall X fuel cid H H',
  X < length (cmds H) -> was_aborted X H = true -> settle fuel cid H = Some H' ->
  is_suffix (c_eff (gcmd X H')) (c_eff (gcmd X H)) /\ is_suffix (c_evs (gcmd X H')) (c_evs (gcmd X H)).
Proof. exact aborted_outputs_only_shrink_settle. Qed.
Theorem C06_aborted_outputs_only_shrink_poll_next : forall X fuel cid w H r H',
  X < length (cmds H) -> was_aborted X H = true -> poll_next fuel cid w H = Some (r, H') ->
  is_suffix (c_eff (gcmd X H')) (c_eff (gcmd X H)) /\ is_suffix (c_evs (gcmd X H')) (c_evs (gcmd X H)).
Proof. exact aborted_outputs_only_shrink_poll_next. Qed.

(* Final, for a TASK aborted through its JoinHandle, and for a request dropped unresolved: through every
   step of the runtime (settling or polling any command at any nesting level; for every fuel and heap) a
   task's abort flag stays set, a task whose flag is set is never polled again (run_task answers Completed
   without calling poll, so it can produce nothing more), the sending end of a dropped request stays closed
   and the receiving end of a request whose future was dropped stays closed - so a late resolution of a
   request that belonged to cancelled work is refused and changes nothing but the coverage log, now and
   for ever.  (Rt/Perm.v: the frame principle instantiated with "what only ever moves one way".) *)
Theorem C06_task_abort_permanent_settle : forall fuel cid H H' u,
  settle fuel cid H = Some H' -> tf_abort (gtf u H) = true -> tf_abort (gtf u H') = true.
Proof. intros fuel cid H H' u E. exact (pm_abort _ _ (perm_settle fuel cid H H' E) u). Qed.
Theorem C06_task_abort_permanent_poll_next : forall fuel cid w H r H' u,
  poll_next fuel cid w H = Some (r, H') -> tf_abort (gtf u H) = true -> tf_abort (gtf u H') = true.
Proof. intros fuel cid w H r H' u E. exact (pm_abort _ _ (perm_poll_next fuel cid w H r H' E) u). Qed.
Theorem C06_aborted_task_never_polled : forall F G cid slot H t,
  slab_get slot (gcmd cid H) = Some t -> tf_abort (gtf (t_uid t) H) = true ->
  rrun_task (step_funs F) cid slot H = Some (Completed, note B_AbortedBeforePoll H) /\
  rrun_task (step_funs F) cid slot H = rrun_task (step_funs G) cid slot H.
Proof. exact aborted_task_never_polled. Qed.
Theorem C06_dropping_a_request_closes_it : forall tg v maps ch H,
  ch_tx (gch ch (drop_req (mkEff tg v maps (ROnce ch)) H)) = false /\
  ch_tx (gch ch (drop_req (mkEff tg v maps (RMany ch)) H)) = false.
Proof. intros. unfold drop_req; cbn [e_res]. split; apply drop_tx_closes. Qed.
Theorem C06_closed_ends_stay_closed_settle : forall fuel cid H H' ch,
  settle fuel cid H = Some H' ->
  (ch_tx (gch ch H) = false -> ch_tx (gch ch H') = false) /\ (ch_rx (gch ch H) = false -> ch_rx (gch ch H') = false).
Proof. intros fuel cid H H' ch E. pose proof (perm_settle fuel cid H H' E) as P. split; [apply (pm_tx _ _ P) | apply (pm_rx _ _ P)]. Qed.
Theorem C06_closed_ends_stay_closed_poll_next : forall fuel cid w H r H' ch,
  poll_next fuel cid w H = Some (r, H') ->
  (ch_tx (gch ch H) = false -> ch_tx (gch ch H') = false) /\ (ch_rx (gch ch H) = false -> ch_rx (gch ch H') = false).
Proof. intros fuel cid w H r H' ch E. pose proof (perm_poll_next fuel cid w H r H' E) as P. split; [apply (pm_tx _ _ P) | apply (pm_rx _ _ P)]. Qed.
Theorem C06_late_value_refused : forall ch v H,
  ch_rx (gch ch H) = false -> chan_send ch v H = (false, note B_SendClosed H).
Proof. exact send_to_closed_refused. Qed.

(* Dropping cancelled work reaches everything below it, at any nesting depth: a drop starts with fuel dfuel H
   (2 per command in the table, plus 2); under the order invariant - which every state of a directly driven command
   and of an app under a Core satisfies - more fuel changes nothing, i.e. the recursion through hosting futures and
   the commands they host never stops early.  (No constant bounds the nesting depth in the model.) *)
From Crux Require Rt.EvictHost Rt.DropFuel.
Theorem C06_drop_of_a_command_never_runs_out_of_fuel : forall n x H,
  EvictHost.OrdH H -> drop_cmd (n + dfuel H) x H = drop_cmd (dfuel H) x H.
Proof. exact DropFuel.drop_cmd_fuel_suffices. Qed.
Theorem C06_drop_of_a_future_never_runs_out_of_fuel : forall n fs H,
  EvictHost.OrdH H -> drop_fs (n + dfuel H) fs H = drop_fs (dfuel H) fs H.
Proof. exact DropFuel.drop_fs_fuel_suffices. Qed.
(* ... and dropping never adds a task to any command *)
Theorem C06_drop_adds_no_task : forall fuel cid H c t,
  EvictHost.tasks_of (gcmd c (drop_cmd fuel cid H)) t -> EvictHost.tasks_of (gcmd c H) t.
Proof. intros fuel cid H. apply (Frame.R_drop_cmd DropFuel.Rna_closed). Qed.

(* Containment at the level of tasks: when the executor disposes of a cancelled (aborted, evicted or completed) task,
   every OTHER task of the same command is left exactly as it was - the future stored in its slot is untouched - and
   every other command's task table is either untouched or emptied entirely (the commands the cancelled future
   hosted, which are dropped with it).  For every heap (Rt/TaskRelease.v). *)
From Crux Require Rt.TaskRelease.
Theorem C06_cancelled_task_leaves_its_siblings_untouched : forall cid s t H,
  (forall s', s' <> s -> slab_get s' (gcmd cid (finish_task cid s t H)) = slab_get s' (gcmd cid H) \/
                         c_ent (gcmd cid (finish_task cid s t H)) = []) /\
  (forall c', c' <> cid -> c_ent (gcmd c' (finish_task cid s t H)) = c_ent (gcmd c' H) \/
                           c_ent (gcmd c' (finish_task cid s t H)) = []).
Proof. exact TaskRelease.finish_task_contained. Qed.

(* ... and the same for a COMMAND-level abort: run_until_settled of an aborted command drops its own tasks and leaves
   every other command's task table untouched, or - for the commands hosted below it - emptied. *)
Theorem C06_aborted_command_leaves_other_commands_tasks_untouched : forall f x H H',
  was_aborted x H = true -> settle (S f) x H = Some H' ->
  forall c', c_ent (gcmd c' H') = c_ent (gcmd c' H) \/ c_ent (gcmd c' H') = [].
Proof. exact TaskRelease.aborted_settle_contained. Qed.

(* ... and neither ever adds to, reorders or takes from the OUTPUT queues of any other command: each other command's
   event and effect queue is left exactly as it was, or (a command dropped on the way) emptied.  Together with
   C06_aborted_outputs_only_shrink_* (the cancelled command's own queues only shrink): cancellation processing produces
   no output anywhere and disturbs no sibling's output. *)
Theorem C06_cancelled_task_leaves_other_commands_outputs_untouched : forall cid s t H c',
  c' <> cid ->
  (c_evs (gcmd c' (finish_task cid s t H)) = c_evs (gcmd c' H) /\ c_eff (gcmd c' (finish_task cid s t H)) = c_eff (gcmd c' H)) \/
  (c_evs (gcmd c' (finish_task cid s t H)) = [] /\ c_eff (gcmd c' (finish_task cid s t H)) = []).
Proof.
  intros cid s t H c' Hne.
  destruct (R_finish_task_tail TaskRelease.Rout_drop_closed cid s t H c') as [(E1 & E2)|E]; [left | right; exact E].
  rewrite E1, E2, Tables.gcmd_ucmd_other by congruence. split; reflexivity.
Qed.
Theorem C06_aborted_command_leaves_other_commands_outputs_untouched : forall f x H H',
  was_aborted x H = true -> settle (S f) x H = Some H' ->
  forall c', c' <> x ->
  (c_evs (gcmd c' H') = c_evs (gcmd c' H) /\ c_eff (gcmd c' H') = c_eff (gcmd c' H)) \/ (c_evs (gcmd c' H') = [] /\ c_eff (gcmd c' H') = []).
Proof.
  intros f x H H' A E c' Hne.
  destruct (aborted_settle_tail TaskRelease.Rout_drop_closed f x H H' A E c') as [(E1 & E2)|E0]; [left | right; exact E0].
  rewrite E1, E2, Tables.gcmd_ucmd_other by congruence. split; reflexivity.
Qed.

(* One clause of the trace predicate that the check evaluates on the implementation, C06_scan, holds of EVERY
   trace of the direct host: for every command, every schedule (late and repeated resolutions, drops, further
   aborts, tasks spawned onto the aborted command, any number of inspections) and every positive fuel, once the
   outermost command has been aborted its leftovers can be taken once, nothing new ever appears, and it
   reports done as soon as both queues have been taken.  The other clauses of C06_ok, no_panic and C06_causal, are
   not proved of the model. *)
Theorem C06_ok_holds_of_model_top_abort : forall fuel c acts os,
  direct (S fuel) c acts = Some os -> C06_scan (top_names c) acts os = true.
Proof.
  intros fuel c acts os. unfold direct, top_names.
  pose proof (new_cmd_K (cx_name (compile c)) [] (cx_main (compile c)) (cx_extra (compile c))) as Kn.
  destruct (new_cmd (cx_name (compile c)) None [] (cx_main (compile c)) (cx_extra (compile c)) H0) as [top H].
  exact (drun_scan fuel top _ acts _ os Kn).
Qed.

(* A late resolution is an ordinary value, never a panic, in the model: Resolve::resolve is total. *)
Theorem C06_late_resolve_total : forall e v H, exists code e' H', resolve_req e v H = (code, e', H') /\ code <= 2.
Proof.
  intros e v H. unfold resolve_req. destruct (e_res e).
  - do 3 eexists; split; [reflexivity|auto].
  - destruct (chan_send c v H). do 3 eexists; split; [reflexivity|auto].
  - destruct (chan_send c v H) as [[|] H1]; do 3 eexists; split; try reflexivity; auto.
  - destruct (chan_send c v H). do 3 eexists; split; [reflexivity|auto].
Qed.

Example C06_nonvacuous :
  direct FUEL0 (CAbortable 1 (CAll [c_req_send 1 1 9; c_req_send 1 2 9]))
         [AEffects; AAbort 1; AIsDone; AResolve 1 1 0 1; AResolve 1 2 0 2; AEvents; AEffects]
  = Some [OEffects [mkOE 1 1 [] KOnce; mkOE 1 2 [] KOnce]; ONone; ODone true 0; OResolve 0; OResolve 0; OEvents []; OEffects []].
Proof. vm_compute. reflexivity. Qed.
