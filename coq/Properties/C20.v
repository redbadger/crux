(* C20 - the CLI's type registry is a pure, closed function of the crate description.
   Statements; the proofs are in Cli/FormatProofs.v, Cli/ClosureProofs.v, Cli/PipelineProofs.v unless they take a few lines.
   [format] models crux_cli's Formatter + the collect into a BTreeMap, [closure]/[run_crates] model the
   Filter's edge rules and the crate-by-crate loop of codegen::run (nodes = GlobalIds). *)
From Coq Require Import List String NArith Bool Permutation.
From Crux Require Import Cli.Format Cli.FormatProofs Cli.Closure Cli.ClosureProofs Cli.Pipeline Cli.PipelineProofs.
From Crux Require Gen.CliItems_bridge_echo Gen.CliItems_cat_facts Gen.CliItems_counter Gen.CliItems_hello_world
  Gen.CliItems_notes Gen.CliItems_simple_counter Gen.CliItems_tap_to_pay Gen.CliItems_crux_core
  Gen.CliItems_crux_http Gen.CliItems_crux_kv Gen.CliItems_crux_platform Gen.CliItems_crux_time Gen.CliTraced.
Import ListNotations.
Open Scope string_scope.

(* Full statement: for EVERY edge relation, with no side condition, the registry is invariant under
   renumbering and reordering, closed, and has contiguous variant indices.  It is false
   (C20_request_without_effect_refuted contradicts it at es = []); the theorems below prove each part
   under the side condition it needs. *)
Definition C20_full_statement : Prop :=
  forall (rho : renum) (es es' : edges),
    (forall c a b, rho c a = rho c b -> a = b) -> Permutation (rename_edges rho es) es' ->
    format es' = format es /\ closedb (format es) = true /\ contiguousb (format es) = true.

(* The registry does not depend on the order in which the edges are visited, nor (C20_set_invariant)
   on how often each occurs, provided ids name one item each and no two different containers carry
   the same name. *)
Theorem C20_perm_invariant : forall es es',
  Permutation es es' -> fun_ids es -> unambiguous (containers es) -> format es = format es'.
Proof. exact format_perm_invariant. Qed.

Theorem C20_set_invariant : forall es es',
  fun_ids es -> (forall e, In e es <-> In e es') -> unambiguous (containers es) -> format es = format es'.
Proof. exact format_set_invariant. Qed.

(* It does not depend on how rustdoc numbered the items (no side condition). *)
Theorem C20_renumber_invariant : forall (rho : renum),
  (forall c a b, rho c a = rho c b -> a = b) -> forall es, format (rename_edges rho es) = format es.
Proof. exact format_renumber_invariant. Qed.

Theorem C20_pure_partial : forall (rho : renum) es es',
  (forall c a b, rho c a = rho c b -> a = b) -> fun_ids es -> unambiguous (containers es) ->
  Permutation (rename_edges rho es) es' -> format es' = format es.
Proof. intros rho es es' Hinj. exact (format_pure rho Hinj es es'). Qed.

(* Without the side condition the result does depend on the order: two reachable items with the same
   name and different shapes (known class name_collision). *)
Definition C20_w_a1 : item := mkItem ("m", 1%N) (Some "A") (Some "A") KStructUnit false None None None.
Definition C20_w_a2 : item := mkItem ("m", 2%N) (Some "A") (Some "A") (KStructTuple [3%N]) false None None None.
Definition C20_w_f3 : item := mkItem ("m", 3%N) (Some "0") (Some "0") KField false (Some "0") (Some (FPrim PU8)) None.
Theorem C20_collision_order_dependent_refuted :
  exists es es', Permutation es es' /\ wf_edges es = true /\ format es <> format es'.
Proof.
  exists [(C20_w_a1, C20_w_a1); (C20_w_a2, C20_w_f3)], [(C20_w_a2, C20_w_f3); (C20_w_a1, C20_w_a1)].
  split; [apply perm_swap|]. split; [vm_compute; reflexivity|]. vm_compute. discriminate.
Qed.

(* One terminated evaluation of the edge rules computes their least fixpoint ... *)
Theorem C20_closure_is_least_fixpoint : forall (F : @facts gid) fuel R,
  closure gid_eqb fuel F [] = Some R -> forall e, In e R <-> derivable F [] e.
Proof. intros F fuel R. exact (closure_spec gid_eqb gid_eqb_spec F [] fuel R). Qed.

(* An evaluation always terminates: fuel above |nodes|^2 suffices (so the "= Some R" premises of the
   theorems here are satisfiable for every fact set, and R is the least fixpoint). *)
Theorem C20_closure_terminates : forall (F : @facts gid) V fuel,
  incl (universe F) V -> List.length (list_prod V V) < fuel ->
  exists R, closure gid_eqb fuel F [] = Some R /\ forall e, In e R <-> derivable F [] e.
Proof.
  intros F V fuel HV Hlt.
  destruct (closure_terminates gid_eqb gid_eqb_spec F [] V fuel HV (NoDup_nil _) (incl_nil_l _) Hlt) as [R [HR _]].
  exists R. split; [exact HR|]. exact (closure_spec gid_eqb gid_eqb_spec F [] fuel R HR).
Qed.

Theorem C20_crate_loop_terminates : forall (cs : list (@facts gid)) V fuel,
  (forall c, In c cs -> incl (universe c) V) -> List.length (list_prod V V) < fuel ->
  exists R, run_crates gid_eqb fuel cs = Some R.
Proof.
  intros cs V fuel Hcs Hlt. unfold run_crates.
  apply (run_crates_terminates gid_eqb gid_eqb_spec V fuel Hlt cs); auto using NoDup_nil, incl_nil_l.
  intros x Hx. cbn in Hx. contradiction.
Qed.

(* ... hence the same set for every order in which items (facts) are visited ... *)
Theorem C20_closure_order_free : forall (F G : @facts gid) fuel fuel' R R',
  facts_equiv F G -> closure gid_eqb fuel F [] = Some R -> closure gid_eqb fuel' G [] = Some R' ->
  forall e, In e R <-> In e R'.
Proof.
  intros F G fuel fuel' R R' HF H1 H2.
  exact (closure_order_free gid_eqb gid_eqb_spec F G [] [] fuel fuel' R R' HF (fun x => iff_refl _) H1 H2).
Qed.

(* ... and for every order in which the crates are loaded. *)
Theorem C20_crate_order_free : forall (cs cs' : list (@facts gid)) fuel fuel' R R',
  Permutation cs cs' -> run_crates gid_eqb fuel cs = Some R -> run_crates gid_eqb fuel' cs' = Some R' ->
  forall e, In e R <-> In e R'.
Proof. intros cs cs' fuel fuel' R R'. exact (run_crates_order_free gid_eqb gid_eqb_spec fuel fuel' cs cs' R R'). Qed.

(* Processing the crates one at a time gives what one evaluation over all the facts gives. *)
Theorem C20_crate_by_crate_is_closure : forall (cs : list (@facts gid)) fuel fuel' R R',
  run_crates gid_eqb fuel cs = Some R -> closure gid_eqb fuel' (big_union (@empty gid) cs) [] = Some R' ->
  forall e, In e R <-> In e R'.
Proof.
  intros cs fuel fuel' R R' H1 H2 e.
  rewrite (run_crates_spec gid_eqb gid_eqb_spec _ _ _ H1 e), (closure_spec gid_eqb gid_eqb_spec _ _ _ _ H2 e). reflexivity.
Qed.

Theorem C20_contiguous : forall es, wf_edges es = true -> contiguousb (format es) = true.
Proof. exact format_contiguous. Qed.

(* declaration order: the members are the declared ids filtered by presence, and the payloads of an
   enum container are their formats in that order *)
Theorem C20_declaration_order : forall x es i,
  map lid (variants x es)
  = filter (fun id => existsb (fun c => negb (it_skip c) && N.eqb id (lid c)) (children has_variant x es)) (variant_ids x)
  /\ map snd (enum_entries i (variants x es) es) = filter_map (fun v => variant_fmt v es) (variants x es).
Proof. intros x es i. split; [apply pick_decl_order | apply enum_entries_payload]. Qed.

(* Closed, apart from the fixed Request container's reference to Effect, whenever every type name
   used by a present field names an item that gets a container (for the Filter's output: the field's
   type is local, was followed by the edge(field, type) rule, and has a serialisable member). *)
Theorem C20_closed_partial : forall es, resolved es -> closed_mod_requestb (format es) = true.
Proof. exact format_closed. Qed.

Theorem C20_closed_with_effect : forall es, resolved es -> defines es "Effect" -> closedb (format es) = true.
Proof. exact format_closed_full. Qed.

(* The same for the whole pipeline (Filter closure, then Formatter), from hypotheses about the
   description itself: every type name used by a REACHED field is the Range of a direct Range field, or
   the name() of a local type the field points to (the edge(field, type) rule follows it), or - the
   remote-crate hypothesis - the name() of a root of one of the visited crates; and that type has
   something to hang a container on (any struct, by the rules of fix: commit 8ae740d; an enum with a
   present variant).  [tbl_fun]: an id names one item of the table; the proof makes no use of
   [fields_in_table]. *)
Theorem C20_closed : forall d fuel G,
  tbl_fun (d_items d) -> fields_in_table d ->
  closure gid_eqb fuel (gfacts d) [] = Some G -> followed d G ->
  closed_mod_requestb (format (edges_of (d_items d) G)) = true.
Proof. intros d fuel G Htbl _. exact (pipeline_closed d fuel G Htbl). Qed.

(* The side condition is needed.  (1) known class request_without_effect: with no Effect type the fixed
   Request container dangles - already for the empty edge relation. *)
Theorem C20_request_without_effect_refuted :
  format [] = [("Request", request_container)] /\ closedb (format []) = false.
Proof. vm_compute. split; reflexivity. Qed.

(* (2) A field whose type is a local unit struct.  Before fix: commit 8ae740d the edge rules followed the
   type (edge(field, Marker)) but a non-root unit struct never became the source of an edge, so no
   container was produced for it; the repaired rules give it an edge to itself and the registry is closed. *)
Definition C20_w_ev : item := mkItem ("m", 1%N) (Some "Event") (Some "Event") (KStructPlain [2%N]) false None None None.
Definition C20_w_fm : item := mkItem ("m", 2%N) (Some "marker") (Some "marker") KField false (Some "marker") (Some (FTypeName "Marker")) None.
Definition C20_w_mk : item := mkItem ("m", 3%N) (Some "Marker") (Some "Marker") KStructUnit false None None None.
Definition C20_w_dump : dump := mkDump [C20_w_ev; C20_w_fm; C20_w_mk] [C20_w_ev] [(C20_w_ev, C20_w_fm)] [] [(C20_w_fm, C20_w_mk)].
Theorem C20_unit_struct_field_defined :
  pipeline C20_w_dump = Some [("Event", CStruct [("marker", FTypeName "Marker")]); ("Marker", CUnitStruct); ("Request", request_container)]
  /\ option_map closed_mod_requestb (pipeline C20_w_dump) = Some true.
Proof. vm_compute. split; reflexivity. Qed.

(* non-vacuity of C20_closed: this description satisfies its hypotheses *)
Example C20_closed_nonvacuous : exists G,
  closure gid_eqb (fuel_for C20_w_dump) (gfacts C20_w_dump) [] = Some G
  /\ tbl_fun (d_items C20_w_dump) /\ fields_in_table C20_w_dump /\ followed C20_w_dump G.
Proof.
  eexists. split; [vm_compute; reflexivity|]. split; [|split].
  - intros x y Hx Hy. cbn in Hx, Hy.
    destruct Hx as [<-|[<-|[<-|[]]]]; destruct Hy as [<-|[<-|[<-|[]]]]; cbn; intros H; try reflexivity; discriminate.
  - intros e [<-|[]]. cbn. auto.
  - intros f s Hf _ Hs. cbn in Hf. destruct Hf as [<-|[<-|[<-|[]]]]; cbn in Hs; try contradiction.
    destruct Hs as [<-|[]]. right. left. exists C20_w_mk. cbn. repeat split; auto. left. reflexivity.
Qed.

(* known class childless_enum_undefined: the same with an enum that has no (unskipped) variant - the
   container rule for enums needs a variant edge. *)
Definition C20_w_en : item := mkItem ("m", 3%N) (Some "Marker") (Some "Marker") (KEnum []) false None None None.
Definition C20_w_dump2 : dump := mkDump [C20_w_ev; C20_w_fm; C20_w_en] [C20_w_ev] [(C20_w_ev, C20_w_fm)] [] [(C20_w_fm, C20_w_en)].
Theorem C20_childless_enum_refuted :
  closure gid_eqb (fuel_for C20_w_dump2) (gfacts C20_w_dump2) [] = Some (map gpair [(C20_w_ev, C20_w_fm); (C20_w_fm, C20_w_en)])
  /\ wf_edges [(C20_w_ev, C20_w_fm); (C20_w_fm, C20_w_en)] = true
  /\ pipeline C20_w_dump2 = Some [("Event", CStruct [("marker", FTypeName "Marker")]); ("Request", request_container)]
  /\ option_map closed_mod_requestb (pipeline C20_w_dump2) = Some false
  /\ known_childless [C20_w_en] [(C20_w_ev, C20_w_fm); (C20_w_fm, C20_w_en)] "Marker" = true.
Proof. vm_compute. repeat split. Qed.

(* known class renamed_type_reference: serde(rename = "Tag") on the struct: defined as Tag, referred to as Marker *)
Definition C20_w_rn : item := mkItem ("m", 3%N) (Some "Tag") (Some "Marker") (KStructTuple [4%N]) false None None None.
Definition C20_w_f4 : item := mkItem ("m", 4%N) (Some "0") (Some "0") KField false (Some "0") (Some (FPrim PU8)) None.
Definition C20_w_es3 : edges := [(C20_w_ev, C20_w_fm); (C20_w_fm, C20_w_rn); (C20_w_rn, C20_w_f4)].
Theorem C20_renamed_reference_refuted :
  wf_edges C20_w_es3 = true
  /\ format C20_w_es3 = [("Event", CStruct [("marker", FTypeName "Marker")]); ("Request", request_container); ("Tag", CNewTypeStruct (FPrim PU8))]
  /\ closed_mod_requestb (format C20_w_es3) = false /\ known_renamed (items_of C20_w_es3) "Marker" = true.
Proof. vm_compute. repeat split. Qed.

(* known class nested_range_undefined: a field of type Option<Range<u32>> *)
Definition C20_w_fr : item := mkItem ("m", 2%N) (Some "span") (Some "span") KField false (Some "span") (Some (FOption (FTypeName "Range"))) None.
Theorem C20_nested_range_refuted :
  wf_edges [(C20_w_ev, C20_w_fr)] = true
  /\ format [(C20_w_ev, C20_w_fr)] = [("Event", CStruct [("span", FOption (FTypeName "Range"))]); ("Request", request_container)]
  /\ closed_mod_requestb (format [(C20_w_ev, C20_w_fr)]) = false /\ known_nested_range [(C20_w_ev, C20_w_fr)] "Range" = true.
Proof. vm_compute. repeat split. Qed.

(* What [fixture_ok] = true establishes about a description. *)
Theorem C20_fixture_ok_sound : forall d es reg crates, fixture_ok d es reg crates = true ->
  format es = reg
  /\ closed_mod_requestb reg = true
  /\ (definesb es "Effect" = true -> closedb reg = true)
  /\ contiguousb reg = true
  /\ (forall rho es', (forall c a b, rho c a = rho c b -> a = b) ->
        Permutation (rename_edges rho es) es' -> format es' = reg)
  /\ (forall F fuel G, facts_equiv (gfacts d) F -> closure gid_eqb fuel F [] = Some G ->
        forall e, In e G <-> In e (map gpair es))
  /\ (forall order fuel G, Permutation crates order ->
        run_crates gid_eqb fuel (map (fun c => gfacts (crate_dump d c)) order) = Some G ->
        forall e, In e G <-> In e (map gpair es)).
Proof. exact fixture_ok_sound. Qed.

(* The trace predicate [C20_ok] (evaluated by the check on every registry the implementation returns
   for a transformed description) holds of the model, strictly outside class request_without_effect. *)
Theorem C20_ok_of_model : forall d es reg crates, fixture_ok d es reg crates = true ->
  forall rho es', (forall c a b, rho c a = rho c b -> a = b) -> Permutation (rename_edges rho es) es' ->
  C20_ok reg (format es') = true
  /\ (known_request_without_effect (format es') = false -> definesb es "Effect" = true ->
      C20_ok_strict reg (format es') = true).
Proof.
  intros d es reg crates H rho es' Hinj HP. destruct (fixture_ok_sound _ _ _ _ H) as [_ [Hc [Hce [Hk [Hp _]]]]].
  rewrite (Hp rho es' Hinj HP). unfold C20_ok_strict, C20_ok. rewrite (proj2 (registry_eqb_eq reg reg) eq_refl), Hc, Hk.
  split; [reflexivity|]. intros _ He. rewrite (Hce He). reflexivity.
Qed.

(* Each bundled description, as dumped from the real Filter/Formatter on this run (vm_compute on the
   whole regenerated object, the closures being evaluated by PipelineProofs.fixture_ok_delta). *)
Theorem C20_fixture_bridge_echo : (fixture_ok CliItems_bridge_echo.the_dump CliItems_bridge_echo.edge_list CliItems_bridge_echo.real_registry CliItems_bridge_echo.crates) = true /\ (closedb CliItems_bridge_echo.real_registry) = true.
Proof. rewrite <- fixture_ok_delta_eq. vm_compute. split; reflexivity. Qed.
Theorem C20_fixture_cat_facts : (fixture_ok CliItems_cat_facts.the_dump CliItems_cat_facts.edge_list CliItems_cat_facts.real_registry CliItems_cat_facts.crates) = true /\ (closedb CliItems_cat_facts.real_registry) = true.
Proof. rewrite <- fixture_ok_delta_eq. vm_compute. split; reflexivity. Qed.
Theorem C20_fixture_counter : (fixture_ok CliItems_counter.the_dump CliItems_counter.edge_list CliItems_counter.real_registry CliItems_counter.crates) = true /\ (closedb CliItems_counter.real_registry) = true.
Proof. rewrite <- fixture_ok_delta_eq. vm_compute. split; reflexivity. Qed.
Theorem C20_fixture_hello_world : (fixture_ok CliItems_hello_world.the_dump CliItems_hello_world.edge_list CliItems_hello_world.real_registry CliItems_hello_world.crates) = true /\ (closedb CliItems_hello_world.real_registry) = true.
Proof. rewrite <- fixture_ok_delta_eq. vm_compute. split; reflexivity. Qed.
Theorem C20_fixture_notes : (fixture_ok CliItems_notes.the_dump CliItems_notes.edge_list CliItems_notes.real_registry CliItems_notes.crates) = true /\ (closedb CliItems_notes.real_registry) = true.
Proof. rewrite <- fixture_ok_delta_eq. vm_compute. split; reflexivity. Qed.
Theorem C20_fixture_simple_counter : (fixture_ok CliItems_simple_counter.the_dump CliItems_simple_counter.edge_list CliItems_simple_counter.real_registry CliItems_simple_counter.crates) = true /\ (closedb CliItems_simple_counter.real_registry) = true.
Proof. rewrite <- fixture_ok_delta_eq. vm_compute. split; reflexivity. Qed.
Theorem C20_fixture_tap_to_pay : (fixture_ok CliItems_tap_to_pay.the_dump CliItems_tap_to_pay.edge_list CliItems_tap_to_pay.real_registry CliItems_tap_to_pay.crates) = true /\ (closedb CliItems_tap_to_pay.real_registry) = true.
Proof. rewrite <- fixture_ok_delta_eq. vm_compute. split; reflexivity. Qed.
(* the capability crates as roots: no Effect type, so only closed up to Request (class request_without_effect) *)
Theorem C20_fixture_crux_core : (fixture_ok CliItems_crux_core.the_dump CliItems_crux_core.edge_list CliItems_crux_core.real_registry CliItems_crux_core.crates) = true.
Proof. rewrite <- fixture_ok_delta_eq. vm_compute. reflexivity. Qed.
Theorem C20_fixture_crux_http : (fixture_ok CliItems_crux_http.the_dump CliItems_crux_http.edge_list CliItems_crux_http.real_registry CliItems_crux_http.crates) = true.
Proof. rewrite <- fixture_ok_delta_eq. vm_compute. reflexivity. Qed.
Theorem C20_fixture_crux_kv : (fixture_ok CliItems_crux_kv.the_dump CliItems_crux_kv.edge_list CliItems_crux_kv.real_registry CliItems_crux_kv.crates) = true.
Proof. rewrite <- fixture_ok_delta_eq. vm_compute. reflexivity. Qed.
Theorem C20_fixture_crux_platform : (fixture_ok CliItems_crux_platform.the_dump CliItems_crux_platform.edge_list CliItems_crux_platform.real_registry CliItems_crux_platform.crates) = true.
Proof. rewrite <- fixture_ok_delta_eq. vm_compute. reflexivity. Qed.
Theorem C20_fixture_crux_time : (fixture_ok CliItems_crux_time.the_dump CliItems_crux_time.edge_list CliItems_crux_time.real_registry CliItems_crux_time.crates) = true.
Proof. rewrite <- fixture_ok_delta_eq. vm_compute. reflexivity. Qed.

(* For the capability protocol types shipped in the repository (http, kv, time, platform, and render,
   which crux_core declares) the registry coincides with the schema traced from their real serde
   implementations by crux_core::typegen (serde-reflection), regenerated on this run; Request is the
   CLI's fixed extra. *)
Theorem C20_agrees_with_tracing :
  remove_key "Request" (format CliItems_crux_http.edge_list) = CliTraced.traced_crux_http
  /\ remove_key "Request" (format CliItems_crux_kv.edge_list) = CliTraced.traced_crux_kv
  /\ remove_key "Request" (format CliItems_crux_time.edge_list) = CliTraced.traced_crux_time
  /\ remove_key "Request" (format CliItems_crux_platform.edge_list) = CliTraced.traced_crux_platform
  /\ remove_key "Request" (format CliItems_crux_core.edge_list) = CliTraced.traced_crux_core.
Proof. vm_compute. repeat split. Qed.

(* [big] has every container of [small], under its name (Pipeline.agrees_where_defined lets an absent name pass) *)
Definition C20_sub_registry (small big : registry) : bool :=
  forallb (fun kc => match lookup (fst kc) big with Some c => container_eqb c (snd kc) | None => false end) small.
(* the same types as they appear inside an application's registry (cat_facts uses all five) *)
Theorem C20_agrees_with_tracing_in_app :
  forallb (fun t => C20_sub_registry t CliItems_cat_facts.real_registry)
          [CliTraced.traced_crux_http; CliTraced.traced_crux_kv; CliTraced.traced_crux_time;
           CliTraced.traced_crux_platform; CliTraced.traced_crux_core] = true.
Proof. vm_compute. reflexivity. Qed.

(* non-vacuity: the hypotheses of the purity theorem are met by a real description, with a
   non-trivial renumbering and a non-trivial reordering *)
Example C20_nonvacuous :
  (wf_edges CliItems_cat_facts.edge_list) = true
  /\ (unambiguousb (containers CliItems_cat_facts.edge_list)) = true
  /\ (format (rev (rename_edges (fun _ n => (7 * n + 3)%N) CliItems_cat_facts.edge_list))) = CliItems_cat_facts.real_registry
  /\ CliItems_cat_facts.edge_list <> [].
Proof.
  split; [vm_compute; reflexivity|]. split; [vm_compute; reflexivity|]. split; [vm_compute; reflexivity|].
  unfold CliItems_cat_facts.edge_list. discriminate.
Qed.
