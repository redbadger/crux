(* C11 - the core is a deterministic function of its input history.

   A Gallina function is deterministic by construction; the statements have content exactly where the
   code consults something that is NOT a function of the history.  Those things are explicit arguments
   of the model: [o : hmap -> hmap], the iteration order of an http-types header HashMap (ANY
   rearrangement of the entries; a fresh one for every map and every process), and [c : N], the value
   of crux_time's process-wide timer counter when a replay starts.  Everything below is for ALL of them. *)
From Coq Require Import List NArith Bool Permutation.
From Crux Require Import Base.Res HttpReq.Model HttpReq.ModelProofs HttpReq.Eq HttpReq.EqProofs HttpReq.Replay HttpReq.ReplayProofs.
Import ListNotations.
Open Scope N_scope.

Theorem C11_http_request_order_independent :
  forall url_ok url_str o1 o2 method ops,
    (forall m, Permutation (o1 m) m) -> (forall m, Permutation (o2 m) m) ->
    send_cmd url_ok url_str o1 method ops = send_cmd url_ok url_str o2 method ops.
Proof. exact send_cmd_order_free. Qed.

Theorem C11_protocol_conversion_order_independent :
  forall url_str o1 o2 method r,
    (forall m, Permutation (o1 m) m) -> (forall m, Permutation (o2 m) m) -> NoDup (map fst (r_headers r)) ->
    into_protocol url_str o1 method r = into_protocol url_str o2 method r.
Proof. exact into_protocol_order_free. Qed.

(* before /repo's commit f481600 (entries emitted in iteration order) two oracles gave two requests *)
Theorem C11_header_order_before_fix_refuted :
  exists r o1 o2, (forall m, Permutation (o1 m) m) /\ (forall m, Permutation (o2 m) m) /\
    NoDup (map fst (r_headers r)) /\
    into_protocol_before_fix (fun _ => []) o1 [71] r <> into_protocol_before_fix (fun _ => []) o2 [71] r.
Proof.
  exists {| r_query := None; r_headers := [([97], [[49]]); ([98], [[50]])]; r_body := [] |}, (fun m => m), (@rev _).
  split; [intros m; apply Permutation_refl|]. split; [intros m; apply Permutation_sym; apply Permutation_rev|].
  split; [repeat constructor; simpl; intuition discriminate|]. vm_compute. discriminate.
Qed.

Theorem C11_replay_deterministic :
  forall o1 o2 c1 c2 h, (forall m, Permutation (o1 m) m) -> (forall m, Permutation (o2 m) m) ->
    renumber (replay o1 c1 h) = renumber (replay o2 c2 h).
Proof.
  intros o1 o2 c1 c2 h P1 P2.
  rewrite (replay_shift o1 c1), (replay_shift_order_free o1 o2 c2), !renumber_shift by assumption. reflexivity.
Qed.

(* nothing but timer ids depends on the counter, and they depend on it by a shift, which preserves
   their order and which renumbering forgets *)
Theorem C11_timer_renumber :
  forall o c h, replay o c h = map (map (shift_effect c)) (replay o 0 h) /\
                renumber (map (map (shift_effect c)) (replay o 0 h)) = renumber (replay o 0 h).
Proof. intros o c h. split; [apply replay_shift|apply renumber_shift]. Qed.

(* within one process state (same counter) the raw traces are equal; across counters they are not,
   so the renumbering in the statement is necessary *)
Theorem C11_replay_same_counter :
  forall o1 o2 c h, (forall m, Permutation (o1 m) m) -> (forall m, Permutation (o2 m) m) ->
    replay o1 c h = replay o2 c h.
Proof.
  intros o1 o2 c h P1 P2. rewrite (replay_shift o1 c), (replay_shift_order_free o1 o2 c) by assumption. reflexivity.
Qed.
Theorem C11_raw_timer_ids_differ :
  replay (fun m => m) 1 [SEvent [AAfter Cap 5]] <> replay (fun m => m) 2 [SEvent [AAfter Cap 5]].
Proof. vm_compute. discriminate. Qed.

(* [resp_eq] is `==` on crux_http::Response *)
Theorem C11_response_eq_iff :
  forall o1 o2 a b ra rb, (forall m, Permutation (o1 m) m) -> (forall m, Permutation (o2 m) m) ->
    build_response a = Some ra -> build_response b = Some rb ->
    (resp_eq o1 o2 ra rb = true <-> same_contents ra rb).
Proof.
  intros o1 o2 a b ra rb P1 P2 Ha Hb. apply resp_eq_iff; try assumption; eapply build_response_wf; eassumption.
Qed.
Theorem C11_response_eq_iff_any_map :
  forall o1 o2 a b, (forall m, Permutation (o1 m) m) -> (forall m, Permutation (o2 m) m) ->
    NoDup (map fst (p_headers a)) -> NoDup (map fst (p_headers b)) ->
    (resp_eq o1 o2 a b = true <-> same_contents a b).
Proof. exact resp_eq_iff. Qed.
Theorem C11_response_eq_oracle_free :
  forall o1 o2 o1' o2' a b,
    (forall m, Permutation (o1 m) m) -> (forall m, Permutation (o2 m) m) ->
    (forall m, Permutation (o1' m) m) -> (forall m, Permutation (o2' m) m) ->
    NoDup (map fst (p_headers a)) -> NoDup (map fst (p_headers b)) ->
    resp_eq o1 o2 a b = resp_eq o1' o2' a b.
Proof. intros. apply eq_true_iff_eq. rewrite !resp_eq_iff by assumption. reflexivity. Qed.
(* the right-hand side of those equivalences is an equivalence relation *)
Theorem C11_response_eq_equivalence :
  (forall a, same_contents a a) /\ (forall a b, same_contents a b -> same_contents b a) /\
  (forall a b c, same_contents a b -> same_contents b c -> same_contents a c).
Proof. split; [exact same_contents_refl|]. split; [exact same_contents_sym|exact same_contents_trans]. Qed.
(* the decidable form evaluated on the implementation's answers is that proposition *)
Theorem C11_same_contentsb_iff : forall a b, same_contentsb a b = true <-> same_contents a b.
Proof.
  (* a name in neither map is looked up in vain on both sides *)
  intros a b. apply andb4_true_iff; auto using opt_N_eqb_eq, N.eqb_eq, opt_bytes_eqb_eq.
  apply (forallb_sweep opt_lbeqb); [exact opt_lbeqb_eq|]. intros n Hn. rewrite in_app_iff in Hn.
  rewrite (proj2 (hget_none_iff n (p_headers a))), (proj2 (hget_none_iff n (p_headers b))); tauto.
Qed.

(* a serialized Response (inside an event or a view model) writes its headers in an order that does
   not depend on the oracle, and responses with equal contents serialize alike *)
Theorem C11_response_serialization_order_independent :
  forall o1 o2 r, (forall m, Permutation (o1 m) m) -> (forall m, Permutation (o2 m) m) ->
    NoDup (map fst (p_headers r)) -> resp_wire_headers o1 r = resp_wire_headers o2 r.
Proof. intros. apply resp_wire_same_contents; auto using same_contents_refl. Qed.
Theorem C11_equal_responses_serialize_alike :
  forall o1 o2 a b, (forall m, Permutation (o1 m) m) -> (forall m, Permutation (o2 m) m) ->
    NoDup (map fst (p_headers a)) -> NoDup (map fst (p_headers b)) ->
    same_contents a b -> resp_wire_headers o1 a = resp_wire_headers o2 b.
Proof. exact resp_wire_same_contents. Qed.
Theorem C11_response_serialization_before_fix_refuted :
  let r := resp0 [([97], [[49]]); ([98], [[50]])] in
  resp_wire_headers_before_fix (fun m => m) r <> resp_wire_headers_before_fix (@rev _) r.
Proof. vm_compute. discriminate. Qed.

(* before /repo's commit 1fa5fcc (header iterators zipped) both directions failed *)
Theorem C11_response_eq_before_fix_refuted :
  (resp_eq_before_fix (fun m => m) (fun m => m) (resp0 []) (resp0 [([97], [[98]])]) = true /\
   ~ same_contents (resp0 []) (resp0 [([97], [[98]])])) /\
  (let h := [([97], [[49]]); ([98], [[50]])] in
   (forall m, Permutation (@rev (bytes * list bytes) m) m) /\
   resp_eq_before_fix (fun m => m) (@rev _) (resp0 h) (resp0 h) = false /\ same_contents (resp0 h) (resp0 h)).
Proof.
  split; split; try reflexivity.
  - intros [_ [_ [_ H]]]. specialize (H [97]). discriminate.
  - intros m. apply Permutation_sym, Permutation_rev.
  - split; [reflexivity|apply same_contents_refl].
Qed.

(* the protocol values with derived equality (HttpRequest, HttpResponse, HttpResult, HttpError,
   KeyValueOperation/Result/Response/Error, Value, TimeRequest, TimeResponse, TimerId, Instant,
   Duration): structural equality on their value trees *)
Theorem C11_derived_eq_iff : forall a b, val_eqb a b = true <-> a = b.
Proof. exact val_eqb_eq. Qed.

(* non-vacuity: a history with two HTTP requests of three headers each (one per API), a key-value
   operation, two timers and a clear, replayed with two different oracles and counters *)
Example C11_nonvacuous :
  let hs := [OHeader [98] [[49]]; OHeader [97] [[50]]; OAppend [99] [[51]; [52]]] in
  let h := [SEvent [AHttp Cap [71] true (fun _ => [47]) hs []; AAfter Cmd 7; AKv Cmd (KGet [107]);
                    AHttp Cmd [80] true (fun _ => [47]) hs []; AAt Cap 1 2];
            SResolve 0; SEvent [AClear 0; ARender Cap]; SView] in
  renumber (replay (fun m => m) 1 h) = renumber (replay (@rev _) 41 h) /\
  replay (fun m => m) 1 h <> replay (fun m => m) 41 h /\
  renumber (replay (fun m => m) 1 h) =
    [[EHttp {| q_method := [71]; q_url := [47]; q_headers := [([97],[50]); ([98],[49]); ([99],[51]); ([99],[52])]; q_body := [] |};
      ETime (TAt 0 1 2);
      ETime (TAfter 1 7); EKv (KGet [107]);
      EHttp {| q_method := [80]; q_url := [47]; q_headers := [([97],[50]); ([98],[49]); ([99],[51]); ([99],[52])]; q_body := [] |}];
     []; [ETime (TClear 0); ERender]; []].
Proof. vm_compute. repeat split. discriminate. Qed.
