(* Every conversion of Conv.v agrees with its specification (model_ok). *)
From Coq Require Import List ZArith Bool Lia.
From Crux Require Import Base.Res Time.Conv.
Import ListNotations.
Open Scope Z_scope.

Ltac unfold_bounds := unfold TD_MAX in *; unfold U64, I64MAX, I64MIN, U32, NPS, NPM, TS_MIN, TS_MAX in *.

Lemma lzeq_refl l : list_Z_eqb l l = true.
Proof. apply list_Z_eqb_eq; reflexivity. Qed.

Lemma total_div_mod s ns : 0 <= ns < NPS -> (s * NPS + ns) / NPS = s /\ (s * NPS + ns) mod NPS = ns.
Proof.
  intros H. assert (N : 0 < NPS) by reflexivity.
  apply (Z.div_mod_unique NPS); [left; apply Z.mod_pos_bound, N|left; exact H|].
  rewrite <- Z.div_mod by (unfold_bounds; lia). lia.
Qed.

(* nothing is carried into the seconds: only SystemTime's i64 range is left to check *)
Lemma systime_small s ns : 0 <= ns < NPS ->
  systime_of_instant s ns = if s <=? I64MAX then Ok (s, ns) else Panic.
Proof.
  intros H. unfold systime_of_instant. rewrite Z.div_small, Z.mod_small, Z.add_0_r by exact H.
  destruct (Z.leb_spec s I64MAX), (Z.leb_spec U64 s), (Z.ltb_spec I64MAX s); try reflexivity; unfold_bounds; lia.
Qed.

(* no leap second, after the epoch: only chrono's upper bound is left to check *)
Lemma datetime_small s ns : 0 <= s -> 0 <= ns < NPS ->
  datetime_of_instant s ns = if s <=? TS_MAX then Ok (s, ns) else Err E_InvalidInstant.
Proof.
  intros Hs H. unfold datetime_of_instant, from_timestamp.
  rewrite (proj2 (Z.ltb_ge s TS_MIN)), (proj2 (Z.leb_gt (2 * NPS) ns)), (proj2 (Z.leb_gt NPS ns)) by (unfold_bounds; lia). cbn [orb andb].
  destruct (Z.leb_spec s TS_MAX), (Z.ltb_spec TS_MAX s), (Z.ltb_spec I64MAX s); try reflexivity; unfold_bounds; lia.
Qed.

Lemma instant_valid a b : (0 <=? a) && (a <? U64) && (0 <=? b) && (b <? U32) = true -> (NPS <=? b) = false ->
  0 <= a /\ 0 <= b < NPS /\ (b <? NPS) = true.
Proof. rewrite !andb_true_iff, !Z.leb_le, !Z.ltb_lt, Z.leb_gt. lia. Qed.

(* C19_ok of the model's own observation, outside the known class.  Specification and model branch on the
   same test, the Instant conversions once rewritten by the lemmas above. *)
Lemma model_ok op a b :
  valid_in op a b = true -> known_invalid_nanos op a b = false ->
  C19_ok op a b (conv op a b) = true.
Proof.
  intros Hv Hk. unfold C19_ok.
  destruct op; cbn [valid_in known_invalid_nanos spec conv] in *.
  - unfold dur_from_millis. destruct (a * NPM <? U64); [apply lzeq_refl|reflexivity].
  - unfold dur_from_secs. destruct (a * NPS <? U64); [apply lzeq_refl|reflexivity].
  - unfold dur_of_std. destruct (a * NPS + b <? U64); [apply lzeq_refl|reflexivity].
  - apply lzeq_refl.
  - unfold instant_new. destruct (b <? NPS); [apply lzeq_refl|reflexivity].
  - unfold instant_of_systime. rewrite Z.ltb_antisym. destruct (0 <=? a); [apply lzeq_refl|reflexivity].
  - destruct (instant_valid a b Hv Hk) as (_ & Hb & ->). rewrite systime_small by exact Hb. destruct (a <=? I64MAX); [apply lzeq_refl|reflexivity].
  - unfold dur_of_timedelta. rewrite (Z.ltb_antisym 0 a). destruct (0 <=? a); [|reflexivity].
    destruct (a <? U64); [apply lzeq_refl|reflexivity].
  - unfold timedelta_of_dur. destruct (a <=? TD_MAX); [apply lzeq_refl|reflexivity].
  - destruct (instant_valid a b Hv Hk) as (Ha & Hb & ->). rewrite datetime_small by assumption. destruct (a <=? TS_MAX); [apply lzeq_refl|reflexivity].
  - unfold instant_of_datetime. rewrite (Z.ltb_antisym 0 a), (Z.leb_antisym b NPS). destruct (0 <=? a); [|reflexivity].
    destruct (b <? NPS); [apply lzeq_refl|reflexivity].
  - destruct (instant_valid a b Hv Hk) as (_ & _ & ->). apply lzeq_refl.
Qed.
