(* Soundness of C18_ok for ALL input sequences (induction over the sequence) and any number of
   timers, from the one-step lemma MachineInv.inv_step. *)
From Coq Require Import List NArith Bool Arith Lia.
From Crux Require Import Timer.Machine Timer.Spec Timer.ListFacts Timer.SpecProofs Timer.MachineInv Timer.Mixed Timer.MixedProofs.
Import ListNotations.

Lemma inv_new : forall k id, inv k id (new_timer k id) hist0 = true.
Proof. reflexivity. Qed.

Theorem ok1_sound_gen : forall k id xs t h, t_kind t = k -> t_id t = id ->
  inv k id t h = true -> ok1 k id h xs (trun t xs) = true.
Proof.
  intros k id xs. induction xs as [|x xs IH]; intros t h Hk Hi Hinv; cbn [trun]; [reflexivity|].
  pose proof (inv_step k id t h x Hk Hi Hinv) as Hs. unfold step_ok in Hs.
  destruct (tstep t x) as [t' o] eqn:Ht. cbn [ok1].
  destruct (is_panic o).
  - rewrite Hs. reflexivity.
  - destruct (hstep k id h x o) as [h'|]; [|contradiction]. apply tstep_ki in Ht. destruct Ht as [Hk' Hi'].
    apply IH; congruence.
Qed.

Definition trel (t : timer) (r : srec) : Prop :=
  match r with (k, id, h) => t_kind t = k /\ t_id t = id /\ inv k id t h = true end.

Definition sinv (c0 : N) (s : sys) (st : list srec) : Prop :=
  Forall2 trel (s_ts s) st /\ ids_of st = first_ids c0 (length st) /\ s_ctr s = mix_id c0 (length st).

Fixpoint count_starts (xs : list sin) : nat :=
  match xs with [] => 0 | SStart _ :: xs' => S (count_starts xs') | _ :: xs' => count_starts xs' end.

(* below 2^64 timers the wrapping counter's next value is still fresh *)
Theorem sok_sound_gen : forall c0 xs s st, sinv c0 s st ->
  (N.of_nat (length st + count_starts xs) <= USIZE)%N ->
  sok st xs (srun s xs) = true.
Proof.
  intros c0 xs. induction xs as [|x xs IH]; intros s st [HF [Hids Hc]] Hn; cbn [srun]; [reflexivity|].
  destruct x as [k|i y]; cbn [sstep].
  - cbn [sok is_panic]. cbn [count_starts] in Hn.
    assert (Hfresh : has_id (s_ctr s) st = false).
    { destruct (has_id (s_ctr s) st) eqn:Hh; [|reflexivity]. exfalso.
      apply has_id_in in Hh. rewrite Hids, Hc in Hh. apply first_ids_fresh in Hh; [exact Hh|lia]. }
    rewrite Hfresh. cbn [negb andb]. apply IH.
    + split; [|split]; cbn [s_ts s_ctr]; rewrite ?app_length, ?Nat.add_1_r.
      * apply Forall2_app; [exact HF|]. constructor; [|constructor]. cbn. repeat split.
      * rewrite first_ids_S, <- Hids, <- Hc. exact (map_app _ st _).
      * rewrite Hc. apply mix_id_succ.
    + rewrite app_length. cbn [length]. lia.
  - cbn [count_starts] in Hn. cbn [sok].
    destruct (nth_error st i) as [[[k id] h]|] eqn:Hst.
    + destruct (F2_nth _ _ _ _ _ HF Hst) as [t [Ht [Hk [Hi Hinv]]]]. rewrite Ht.
      pose proof (inv_step k id t h y Hk Hi Hinv) as Hs. unfold step_ok in Hs.
      destruct (tstep t y) as [t' o] eqn:Hts. cbn [sok is_panic].
      destruct (is_panic o).
      * rewrite Hs. reflexivity.
      * destruct (hstep k id h y o) as [h'|]; [|contradiction]. apply tstep_ki in Hts. destruct Hts as [Hk' Hi'].
        apply IH.
        -- split; [|split]; cbn [s_ts s_ctr].
           ++ apply F2_upd; [exact HF|]. cbn. repeat split; congruence.
           ++ rewrite upd_len. unfold ids_of. rewrite map_upd_same with (b := (k, id, h)) by (assumption || reflexivity). exact Hids.
           ++ rewrite upd_len. exact Hc.
        -- rewrite upd_len. exact Hn.
    + rewrite (F2_none _ _ _ _ HF Hst). cbn [sok is_panic]. apply IH; [|exact Hn].
      split; [|split]; assumption.
Qed.
