(* [mix_id c0 j] is the j-th value of a wrapping usize counter started at c0; the first n <= 2^64 are distinct. *)
From Coq Require Import List NArith Bool Arith Lia.
From Crux Require Import Timer.Machine Timer.ListFacts Timer.Mixed.
Import ListNotations.

Lemma mix_id_inj : forall c0 i j, (N.of_nat i < USIZE)%N -> (N.of_nat j < USIZE)%N ->
  mix_id c0 i = mix_id c0 j -> i = j.
Proof.
  intros c0 i j Hi Hj H. unfold mix_id in H.
  assert (HU : (USIZE <> 0)%N) by (unfold USIZE; discriminate).
  pose proof (N.div_mod (c0 + N.of_nat i) USIZE HU) as E1.
  pose proof (N.div_mod (c0 + N.of_nat j) USIZE HU) as E2.
  rewrite H in E1.
  set (q1 := ((c0 + N.of_nat i) / USIZE)%N) in *. set (q2 := ((c0 + N.of_nat j) / USIZE)%N) in *.
  set (m := ((c0 + N.of_nat j) mod USIZE)%N) in *.
  assert (q1 = q2) by nia. subst q1. nia.
Qed.
Lemma mix_id_0 : forall c0, (c0 < USIZE)%N -> c0 = mix_id c0 0.
Proof. intros c0 Hc. unfold mix_id. rewrite N.add_0_r. symmetry. apply N.mod_small. exact Hc. Qed.
(* get_timer_id: fetch_add(1) on the value that was handed out last *)
Lemma mix_id_succ : forall c0 n, ((mix_id c0 n + 1) mod USIZE)%N = mix_id c0 (S n).
Proof.
  intros. unfold mix_id. rewrite N.add_mod_idemp_l by (unfold USIZE; discriminate). f_equal. lia.
Qed.

Definition first_ids (c0 : N) (n : nat) : list N := map (mix_id c0) (seq 0 n).

Lemma first_ids_S : forall c0 n, first_ids c0 (S n) = first_ids c0 n ++ [mix_id c0 n].
Proof. intros. unfold first_ids. rewrite seq_S, map_app. reflexivity. Qed.
Lemma first_ids_fresh : forall c0 n, (N.of_nat n < USIZE)%N -> ~ In (mix_id c0 n) (first_ids c0 n).
Proof.
  intros c0 n Hn Hin. apply in_map_iff in Hin as [j [E Hj]]. apply in_seq in Hj.
  apply mix_id_inj in E; lia.
Qed.
Lemma first_ids_nodup : forall c0 n, (N.of_nat n <= USIZE)%N -> NoDup (first_ids c0 n).
Proof.
  intros c0. induction n as [|n IH]; intros Hn; [constructor|].
  rewrite first_ids_S. apply NoDup_snoc; [apply IH|apply first_ids_fresh]; lia.
Qed.

Lemma memN_in : forall x l, memN x l = true <-> In x l.
Proof.
  intros x l. induction l as [|y l IH]; cbn; [split; [discriminate|tauto]|].
  rewrite orb_true_iff, IH, N.eqb_eq. split; intros [H|H]; auto.
Qed.
Lemma nodupb_NoDup : forall l, nodupb l = true <-> NoDup l.
Proof.
  induction l as [|x l IH]; cbn; [split; [constructor|reflexivity]|].
  rewrite andb_true_iff, negb_true_iff, IH. split.
  - intros [H1 H2]. constructor; [|exact H2]. intros Hin. apply memN_in in Hin. congruence.
  - intros H. inversion H; subst. split; [|assumption].
    destruct (memN x l) eqn:E; [|reflexivity]. apply memN_in in E. contradiction.
Qed.
