(* Theorems about the outcome automaton of Spec.v itself: what every ACCEPTED (inputs, observations)
   pair satisfies, for all sequences (induction over the trace with the history generalised).
   They apply to the model's traces (accepted for all inputs, MachineProofs.v) and to every
   implementation trace the check finds accepted. *)
From Coq Require Import List NArith Bool Arith Lia.
From Crux Require Import Timer.Machine Timer.Spec Timer.ListFacts.
Import ListNotations.

Lemma eff_eqb_eq : forall a b, eff_eqb a b = true -> a = b.
Proof. intros [x|x|x] [y|y|y] H; cbn in H; try discriminate; apply N.eqb_eq in H; congruence. Qed.
Lemma outcome_eqb_eq : forall a b, outcome_eqb a b = true -> a = b.
Proof. intros [x|] [y|] H; cbn in H; try discriminate; try reflexivity; apply N.eqb_eq in H; congruence. Qed.
Lemma effs_eqb_eq : forall a b, effs_eqb a b = true -> a = b.
Proof. apply list_eqb_eq, eff_eqb_eq. Qed.
Lemma outs_eqb_eq : forall a b, outs_eqb a b = true -> a = b.
Proof. apply list_eqb_eq, outcome_eqb_eq. Qed.
Lemma is_nil_eq : forall A (l : list A), is_nil l = true -> l = [].
Proof. intros A [|a l] H; [reflexivity|discriminate]. Qed.

(* what an accepted run of the command looks like, clause by clause *)
Inductive poll_shape (k : tkind) (id : N) (h : hist) : list eff -> list outcome -> bool -> Prop :=
| PsAfter : h_out h || h_done h = true -> poll_shape k id h [] [] true
| PsSilentCleared : h_out h || h_done h = false -> h_started h = false -> h_app h = true ->
    poll_shape k id h [] [Cleared] true
| PsStart : h_out h || h_done h = false -> h_started h = false -> h_app h = false ->
    poll_shape k id h [start_eff k id] [] false
| PsCompleted : h_out h || h_done h = false -> h_started h = true -> h_clr h = false -> h_pend h = true ->
    poll_shape k id h [] [Completed id] true
| PsClear : h_out h || h_done h = false -> h_started h = true -> h_clr h = false -> h_pend h = false ->
    h_app h = true -> poll_shape k id h [EClear id] [] false
| PsWait : forall d, h_out h || h_done h = false -> h_started h = true -> h_clr h = false -> h_pend h = false ->
    h_app h = false -> (d = true -> h_drop h = true /\ h_hdl h = false) -> poll_shape k id h [] [] d
| PsCleared : h_out h || h_done h = false -> h_started h = true -> h_clr h = true -> h_ans h = true ->
    poll_shape k id h [] [Cleared] true
| PsWaitClr : forall d, h_out h || h_done h = false -> h_started h = true -> h_clr h = true -> h_ans h = false ->
    (d = true -> h_drop h = true) -> poll_shape k id h [] [] d.

Lemma chk_poll_shape : forall k id h e v d, chk_poll k id h e v d = true -> poll_shape k id h e v d.
Proof.
  intros k id h e v d H. unfold chk_poll in H.
  destruct (h_out h || h_done h) eqn:Hod;
    [|destruct (h_started h) eqn:Hs;
      [destruct (h_clr h) eqn:Hc; [destruct (h_ans h) eqn:Hn|destruct (h_pend h) eqn:Hp; [|destruct (h_app h) eqn:Ha]]
      |destruct (h_app h) eqn:Ha]];
    cbn [negb] in H; apply andb_prop in H as [H Hd]; apply andb_prop in H as [He Hv];
    first [apply is_nil_eq in He|apply effs_eqb_eq in He]; first [apply is_nil_eq in Hv|apply outs_eqb_eq in Hv]; subst e v.
  - rewrite Hd. apply PsAfter, Hod.
  - rewrite Hd. apply PsCleared; assumption.
  - apply PsWaitClr; try assumption. intros ->. exact Hd.
  - rewrite Hd. apply PsCompleted; assumption.
  - apply negb_true_iff in Hd. rewrite Hd. apply PsClear; assumption.
  - apply PsWait; try assumption. intros ->. cbn in Hd. apply andb_prop in Hd as [H1 H2]. apply negb_true_iff in H2. auto.
  - rewrite Hd. apply PsSilentCleared; assumption.
  - apply negb_true_iff in Hd. rewrite Hd. apply PsStart; assumption.
Qed.

(* the eight clauses in order; H: the clause's fact about h_out || h_done, Hd: what a done flag implies *)
Ltac shapes S := destruct S as [H|H ? ?|H ? ?|H ? ? ?|H ? ? ? ?|d H ? ? ? ? Hd|H ? ? ?|d H ? ? ? Hd].

(* This file reads only the first conjunct (a Clear request goes out only for a started timer the app cleared),
   SpecWeak.hwf_facts the last two (a command done without outcome was in a waiting clause of [chk_poll]); the
   others carry these through the steps. *)
Definition hwf (h : hist) : bool :=
  implb (h_clr h) (h_app h && h_started h) && implb (h_ans h) (h_clr h) &&
  implb (h_app h) (negb (h_hdl h)) && implb (h_pend h) (h_started h && negb (h_clr h)) &&
  implb (h_out h) (h_done h) &&
  implb (h_done h && negb (h_out h))
        (h_started h && negb (h_pend h) && negb (h_hdl h) && (h_clr h || negb (h_app h)) && implb (h_clr h) (negb (h_ans h))).

Lemma hwf0 : hwf hist0 = true.
Proof. reflexivity. Qed.

Lemma hwf_set_pend h : hwf h = true -> h_started h = true -> h_clr h = false -> h_done h = false -> hwf (set_pend h) = true.
Proof.
  destruct h as [hs hp hf ha hh hc hn hd ho hdn hb]. unfold hwf. cbn. intros H -> -> ->. revert H.
  destruct hp, ho; cbn; rewrite ?andb_true_r, ?andb_false_r; trivial.
Qed.
Lemma hwf_set_ans h : hwf h = true -> h_clr h = true -> h_done h = false -> hwf (set_ans h) = true.
Proof.
  destruct h as [hs hp hf ha hh hc hn hd ho hdn hb]. unfold hwf. cbn. intros H -> ->. revert H.
  destruct hn, ho; cbn; rewrite ?andb_true_r, ?andb_false_r; trivial.
Qed.
Lemma hwf_set_app h a : hwf h = true -> (a = true -> h_done h = false) -> hwf (set_app h a) = true.
Proof.
  destruct h as [hs hp hf ha hh hc hn hd ho hdn hb]. unfold hwf. cbn. intros H Ha. revert H.
  destruct a; [rewrite (Ha eq_refl)|]; destruct ha, hh, hc, hs, hdn, ho; cbn; rewrite ?andb_true_r, ?andb_false_r; cbn; congruence.
Qed.

Lemma hwf_poll k id h e v d : hwf h = true -> poll_shape k id h e v d -> hwf (hist_poll h e v d) = true.
Proof.
  destruct h as [hs hp hf ha hh hc hn hd ho hdn hb]. unfold hwf. intros H S. revert H.
  shapes S; cbn in *; subst; try apply orb_false_elim in H as [-> ->].
  - destruct ho, hdn; try discriminate H; destruct hs, hp, ha, hh, hc, hn; cbn; congruence.
  - destruct hp, hh, hc, hn; cbn; congruence.
  - destruct hp, hh, hc, hn; cbn; congruence.
  - destruct ha, hh, hn; cbn; congruence.
  - destruct hh, hn; cbn; congruence.
  - destruct d; [destruct (Hd eq_refl) as [_ ->]; destruct hn|destruct hh, hn]; cbn; congruence.
  - destruct hp, ha, hh; cbn; congruence.
  - destruct hp, ha, hh, d; cbn; congruence.
Qed.

Lemma live_true h : live h = true -> h_out h = false /\ h_done h = false.
Proof. unfold live. destruct (h_out h), (h_done h); cbn; auto; discriminate. Qed.

Definition ignored_or_set (h : hist) (x : tin) (c : N) (h' : hist) : Prop :=
  match x with
  | IPoll => False
  | IFire _ => h' = h \/ (c = 0%N /\ h' = set_pend h /\ h_started h = true /\ h_clr h = false /\ live h = true)
  | IDropReq => h' = h \/ (c = 3%N /\ h' = set_drop h /\ h_started h = true)
  | IClear => h' = set_app h (h_hdl h && live h)
  | IDropHandle => h' = set_app h false
  | IAnsClr _ => h' = h \/ (c = 0%N /\ h' = set_ans h /\ h_clr h = true /\ live h = true)
  | IDropClr => h' = h \/ (c = 3%N /\ h' = set_drop h /\ h_clr h = true)
  end.
Lemma hstep_cases k id h x o h' : h_bad h = false -> good_in k id x = true -> hstep k id h x o = Some h' ->
  (exists e v d, x = IPoll /\ o = OPoll e v d /\ poll_shape k id h e v d /\ h' = hist_poll h e v d) \/
  (exists c, o = ORes c /\ ignored_or_set h x c h').
Proof.
  intros Hb Hg Hst. unfold ignored_or_set, hstep in *. rewrite Hb in Hst.
  destruct x as [|r| | | |r| ]; destruct o as [e v d|c| | | ]; try discriminate Hst; [left|right; exists c; (split; [reflexivity|]) ..];
    cbn [good_in] in Hg; try rewrite Hg in Hst.
  - destruct (chk_poll k id h e v d) eqn:Hc; [|discriminate]. injection Hst as <-. exists e, v, d. auto using chk_poll_shape.
  - destruct (N.eqb c 0) eqn:Ec; [|destruct (N.eqb c 3); [discriminate|injection Hst as <-; auto]].
    destruct (h_started h); [|discriminate]. destruct (h_done h && _ && _); [discriminate|]. cbn [negb] in Hst.
    destruct (live h && negb (h_clr h)) eqn:Hl; injection Hst as <-; [right|auto].
    apply andb_prop in Hl as [Hl Hc]. apply negb_true_iff in Hc. apply N.eqb_eq in Ec. auto.
  - destruct (N.eqb c 3) eqn:Ec; [destruct (h_started h); [|discriminate]|]; injection Hst as <-; auto.
    apply N.eqb_eq in Ec. auto.
  - injection Hst as <-. reflexivity.
  - injection Hst as <-. reflexivity.
  - destruct (N.eqb c 0) eqn:Ec; [|destruct (N.eqb c 3); [discriminate|injection Hst as <-; auto]].
    destruct (h_clr h); [|discriminate]. destruct (h_done h && _); [discriminate|]. cbn [negb] in Hst.
    destruct (live h) eqn:Hl; injection Hst as <-; [right|auto]. apply N.eqb_eq in Ec. auto.
  - destruct (N.eqb c 3) eqn:Ec; [destruct (h_clr h); [|discriminate]|]; injection Hst as <-; auto.
    apply N.eqb_eq in Ec. auto.
Qed.

Lemma hstep_res k id h x c h' : h_bad h = false -> good_in k id x = true -> hstep k id h x (ORes c) = Some h' ->
  ignored_or_set h x c h'.
Proof.
  intros Hb Hg Hst. destruct (hstep_cases _ _ _ _ _ _ Hb Hg Hst) as [(e & v & d & _ & [=] & _)|(c' & [= <-] & H)]. exact H.
Qed.

(* in the order of the inputs: two goals each for IFire, IDropReq, IAnsClr, IDropClr (ignored; the setter applied,
   H its conditions), one each for IClear, IDropHandle *)
Ltac inputs x H :=
  unfold ignored_or_set in H; destruct x; [contradiction|destruct H as [->|(-> & -> & H)]|destruct H as [->|(-> & -> & H)]|subst|subst
              |destruct H as [->|(-> & -> & H)]|destruct H as [->|(-> & -> & H)]].

Lemma hstep_frame k id h x c h' : h_bad h = false -> good_in k id x = true -> hstep k id h x (ORes c) = Some h' ->
  h_started h' = h_started h /\ h_clr h' = h_clr h /\ h_out h' = h_out h /\ h_done h' = h_done h.
Proof.
  intros Hb Hg Hst. pose proof (hstep_res _ _ _ _ _ _ Hb Hg Hst) as H. inputs x H; repeat split.
Qed.

Lemma hstep_good : forall k id h x o h', hstep k id h x o = Some h' -> h_bad h = false ->
  good_in k id x = true -> hwf h = true -> h_bad h' = false /\ hwf h' = true.
Proof.
  intros k id h x o h' Hst Hb Hg Hw.
  destruct (hstep_cases _ _ _ _ _ _ Hb Hg Hst) as [(e & v & d & _ & _ & S & ->)|(c & _ & H)].
  { split; [exact Hb|exact (hwf_poll k id _ _ _ _ Hw S)]. }
  (* [hwf] does not read h_drop *)
  inputs x H; (split; [exact Hb|]); trivial.
  - (* IFire *) destruct H as (Hs & Hc & Hl). apply live_true in Hl. apply hwf_set_pend; tauto.
  - (* IClear *) apply hwf_set_app; [exact Hw|]. intros Ha. apply andb_prop in Ha as [_ Hl]. apply live_true in Hl. tauto.
  - (* IDropHandle *) apply hwf_set_app; [exact Hw|discriminate].
  - (* IAnsClr *) destruct H as (Hc & Hl). apply live_true in Hl. apply hwf_set_ans; tauto.
Qed.

Lemma ok1_step : forall k id h x xs o os, ok1 k id h (x :: xs) (o :: os) = true -> h_bad h = false ->
  hwf h = true -> good k id (x :: xs) = true ->
  is_panic o = false /\ good_in k id x = true /\ good k id xs = true /\
  exists h', hstep k id h x o = Some h' /\ ok1 k id h' xs os = true /\ h_bad h' = false /\ hwf h' = true.
Proof.
  intros k id h x xs o os Hok Hb Hw Hg. cbn [ok1] in Hok. unfold good in Hg. cbn [forallb] in Hg.
  apply andb_prop in Hg as [Hg1 Hg2].
  destruct (is_panic o) eqn:Hp. { rewrite Hb in Hok. discriminate. }
  destruct (hstep k id h x o) as [h'|] eqn:Hst; [|discriminate].
  destruct (hstep_good _ _ _ _ _ _ Hst Hb Hg1 Hw) as [Hb' Hw'].
  repeat split; auto. exists h'. auto.
Qed.


(* entered below by [refine], which reads P off the goal *)
Lemma ok1_good_ind k id (P : hist -> list tin -> list obs -> Prop) :
  (forall h, P h [] []) ->
  (forall h e v d xs os, h_bad h = false -> hwf h = true -> poll_shape k id h e v d ->
     P (hist_poll h e v d) xs os -> P h (IPoll :: xs) (OPoll e v d :: os)) ->
  (forall h x c h' xs os, h_bad h = false -> hwf h = true -> good_in k id x = true ->
     hstep k id h x (ORes c) = Some h' -> P h' xs os -> P h (x :: xs) (ORes c :: os)) ->
  forall xs h os, ok1 k id h xs os = true -> h_bad h = false -> hwf h = true -> good k id xs = true -> P h xs os.
Proof.
  intros Hnil Hpoll Hoth. induction xs as [|x xs IH]; intros h os Hok Hb Hw Hg; destruct os as [|o os]; try discriminate Hok.
  { apply Hnil. }
  destruct (ok1_step _ _ _ _ _ _ _ Hok Hb Hw Hg) as (_ & Hg1 & Hg2 & h' & Hst & Hok' & Hb' & Hw').
  specialize (IH h' os Hok' Hb' Hw' Hg2).
  destruct (hstep_cases _ _ _ _ _ _ Hb Hg1 Hst) as [(e & v & d & -> & -> & S & ->)|(c & -> & _)].
  - apply Hpoll; assumption.
  - apply (Hoth h x c h'); assumption.
Qed.


Definition has_done (os : list obs) : Prop := exists e v, In (OPoll e v true) os.

Section One.
Variables (k : tkind) (id : N).

(* at most one outcome, and none after the outcome or after the command reported done *)
Lemma one_outcome_gen : forall xs h os, ok1 k id h xs os = true -> h_bad h = false -> hwf h = true ->
  good k id xs = true -> length (events_of os) <= (if h_out h || h_done h then 0 else 1).
Proof.
  refine (ok1_good_ind k id _ _ _ _).
  - intros h. cbn. destruct (_ || _); lia.
  - intros h e v d xs os _ _ S IH. cbn [events_of]. rewrite app_length.
    destruct h as [hs hp hf ha hh hc hn hd ho hdn hb]. shapes S;
      cbn in *; rewrite H; try apply orb_false_elim in H as [-> ->]; cbn in IH; rewrite ?orb_true_r in IH; try destruct d; cbn in IH; lia.
  - intros h x c h' xs os Hb _ Hg Hst IH. destruct (hstep_frame _ _ _ _ _ _ Hb Hg Hst) as (_ & _ & Ho & Hd).
    cbn [events_of]. rewrite <- Ho, <- Hd. exact IH.
Qed.

(* Completed only if the shell answered the request, and it carries the timer's own id *)
Lemma completed_gen : forall xs h os, ok1 k id h xs os = true -> h_bad h = false -> hwf h = true ->
  good k id xs = true -> forall i, In (Completed i) (events_of os) ->
  i = id /\ (h_pend h = true \/ answered k id xs os = true).
Proof.
  refine (ok1_good_ind k id _ _ _ _).
  - intros h i [].
  - intros h e v d xs os _ _ S IH i Hin. cbn [events_of answered] in *. apply in_app_or in Hin as [Hin|Hin].
    + destruct S; cbn in Hin; try tauto; destruct Hin as [Hin|[]]; inversion Hin; auto.
    + destruct (IH i Hin) as [-> [Hp|Ha]]; [discriminate Hp|auto].
  - intros h x c h' xs os Hb _ Hg Hst IH i Hin. destruct (IH i Hin) as [-> [Hp|Ha]]; split; trivial.
    + pose proof (hstep_res _ _ _ _ _ _ Hb Hg Hst) as Hh.
      inputs x Hh; auto.
      (* IFire taken as the waiting answer *)
      right. cbn in Hg |- *. rewrite Hg. reflexivity.
    + right. destruct x; cbn [answered]; rewrite ?Ha, ?orb_true_r; reflexivity.
Qed.

(* Cleared only if the app cleared the timer *)
Lemma cleared_gen : forall xs h os, ok1 k id h xs os = true -> h_bad h = false -> hwf h = true ->
  good k id xs = true -> In Cleared (events_of os) ->
  h_app h = true \/ (h_hdl h = true /\ app_cleared xs = true).
Proof.
  refine (ok1_good_ind k id _ _ _ _).
  - intros h [].
  - intros h e v d xs os _ Hw S IH Hin. cbn [events_of app_cleared] in *. apply in_app_or in Hin as [Hin|Hin]; [|exact (IH Hin)].
    left. destruct S as [| | | | | |_ _ Hc _|]; cbn in Hin; try tauto; destruct Hin as [Hin|[]]; try discriminate Hin; trivial.
    (* a Clear request is only ever sent for a timer the app cleared *)
    unfold hwf in Hw. rewrite Hc in Hw. destruct (h_app h); [reflexivity|discriminate Hw].
  - intros h x c h' xs os Hb _ Hg Hst IH Hin.
    pose proof (hstep_res _ _ _ _ _ _ Hb Hg Hst) as Hh. specialize (IH Hin). cbn [app_cleared].
    inputs x Hh; trivial; destruct IH as [IH|[IH _]]; try discriminate IH; cbn in IH.
    + (* IClear *) apply orb_prop in IH as [IH|IH]; [auto|]. apply andb_prop in IH as [IH _]. auto.
    + (* IDropHandle *) rewrite orb_false_r in IH. auto.
Qed.

(* a timer cleared before it was ever requested sends nothing to the shell, ever *)
Definition silent_pre (h : hist) (xs : list tin) : Prop :=
  h_out h || h_done h = true \/
  (h_started h = false /\ (h_app h = true \/ (h_hdl h = true /\ cleared_before_start xs = true))).
Lemma silent_gen : forall xs h os, ok1 k id h xs os = true -> h_bad h = false -> hwf h = true ->
  good k id xs = true -> silent_pre h xs -> effects_of os = [].
Proof.
  refine (ok1_good_ind k id _ _ _ _); unfold silent_pre.
  - reflexivity.
  - intros h e v d xs os _ _ S IH Hq. cbn [effects_of cleared_before_start] in *.
    assert (Hq' : h_out h || h_done h = true \/ h_started h = false /\ h_app h = true).
    { destruct Hq as [Hq|[Hs [Ha|[_ Hc]]]]; [auto|auto|discriminate Hc]. }
    clear Hq. shapes S; destruct Hq' as [Hq|[Hs Ha]]; try congruence; apply IH; left; cbn; rewrite ?orb_true_r; reflexivity.
  - intros h x c h' xs os Hb _ Hg Hst IH Hq. cbn [effects_of]. apply IH.
    destruct (hstep_frame _ _ _ _ _ _ Hb Hg Hst) as (Hs & _ & Ho & Hd). rewrite Hs, Ho, Hd.
    destruct Hq as [Hq|[Hq Hc]]; [left; exact Hq|]. 
    pose proof (hstep_res _ _ _ _ _ _ Hb Hg Hst) as Hh.
    inputs x Hh; cbn in *; auto.
    + (* IClear: recorded unless the timer already has its outcome *)
      unfold live. destruct (h_out h), (h_done h); cbn; auto. right. split; [exact Hq|]. left.
      destruct Hc as [->|[-> _]]; [reflexivity|apply orb_true_r].
    + (* IDropHandle *) right. split; [exact Hq|]. left. destruct Hc as [->|[_ [=]]]. reflexivity.
Qed.

(* what is ever sent to the shell: the request at most once, then at most one Clear for this id *)
Definition eff_shape (h : hist) (l : list eff) : Prop :=
  if h_out h || h_done h then l = []
  else if negb (h_started h) then l = [] \/ l = [start_eff k id] \/ l = [start_eff k id; EClear id]
  else if negb (h_clr h) then l = [] \/ l = [EClear id]
  else l = [].
Lemma eff_shape_nil : forall h, eff_shape h [].
Proof. intros h. unfold eff_shape. destruct (_ || _), (negb (h_started h)), (negb (h_clr h)); auto. Qed.
Lemma effects_gen : forall xs h os, ok1 k id h xs os = true -> h_bad h = false -> hwf h = true ->
  good k id xs = true -> eff_shape h (effects_of os).
Proof.
  refine (ok1_good_ind k id _ _ _ _).
  - apply eff_shape_nil.
  - intros h e v d xs os _ Hw S IH. cbn [effects_of]. unfold eff_shape, hwf in *.
    destruct h as [hs hp hf ha hh hc hn hd ho hdn hb]. shapes S; cbn in *; rewrite H; try apply orb_false_elim in H as [-> ->]; subst; cbn in *;
      rewrite ?orb_true_r in IH; cbn in IH; try destruct d; cbn in IH; auto.
    + (* PsStart, the first run: the Clear request, if any, is still to come *)
      destruct hc; [discriminate Hw|]. cbn in IH. destruct IH as [->| ->]; auto.
    + (* PsClear *) rewrite IH. auto.
  - intros h x c h' xs os Hb _ Hg Hst IH. destruct (hstep_frame _ _ _ _ _ _ Hb Hg Hst) as (Hs & Hc & Ho & Hd).
    unfold eff_shape in *. rewrite <- Hs, <- Hc, <- Ho, <- Hd. exact IH.
Qed.

(* after the outcome (or once the command reported done) every run is empty: late clears,
   answers, drops are ignored *)
Lemma quiet_gen : forall xs h os, ok1 k id h xs os = true -> h_bad h = false -> hwf h = true ->
  good k id xs = true -> h_out h || h_done h = true -> Forall quiet_obs os.
Proof.
  refine (ok1_good_ind k id _ _ _ _).
  - constructor.
  - intros h e v d xs os _ _ S IH Hq. shapes S; rewrite H in Hq; try discriminate Hq.
    constructor; [cbn; auto|]. apply IH. cbn. rewrite !orb_true_r. reflexivity.
  - intros h x c h' xs os Hb _ Hg Hst IH Hq. destruct (hstep_frame _ _ _ _ _ _ Hb Hg Hst) as (_ & _ & Ho & Hd).
    constructor; [exact I|]. apply IH. rewrite Ho, Hd. exact Hq.
Qed.

(* under responses of the right kind and id nothing panics, and every input is observed *)
Lemma nopanic_gen : forall xs h os, ok1 k id h xs os = true -> h_bad h = false -> hwf h = true ->
  good k id xs = true -> ~ In OPanic os /\ length os = length xs.
Proof.
  refine (ok1_good_ind k id _ _ _ _).
  - split; [intros []|reflexivity].
  - intros h e v d xs os _ _ _ [IH1 IH2]. split; [intros [Hin|Hin]; [discriminate|auto]|cbn; congruence].
  - intros h x c h' xs os _ _ _ _ [IH1 IH2]. split; [intros [Hin|Hin]; [discriminate|auto]|cbn; congruence].
Qed.

(* the command reports done without an outcome only if the shell dropped a request of this
   timer: dropping the handle alone never ends the timer *)
Lemma done_gen : forall xs h os, ok1 k id h xs os = true -> h_bad h = false -> hwf h = true ->
  good k id xs = true -> h_out h || h_done h = false -> has_done os -> events_of os = [] ->
  h_drop h = true \/ req_dropped xs os = true.
Proof.
  refine (ok1_good_ind k id _ _ _ _).
  - intros h _ [e [v []]].
  - intros h e v d xs os _ _ S IH Hl [e0 [v0 Hin]] Hev. cbn [events_of req_dropped] in *.
    apply app_eq_nil in Hev as [Hv Hev].
    assert (Hdrop : d = true -> h_drop h = true).
    { intros Hd'. shapes S; try congruence; apply Hd in Hd'; tauto. }
    subst v. destruct d; [left; auto|]. destruct Hin as [[=]|Hin]. apply IH; trivial; [|exists e0, v0; exact Hin].
    cbn. rewrite !orb_false_r. exact Hl.
  - intros h x c h' xs os Hb _ Hg Hst IH Hl [e0 [v0 [[=]|Hin]]] Hev.
    destruct (hstep_frame _ _ _ _ _ _ Hb Hg Hst) as (_ & _ & Ho & Hd). rewrite <- Ho, <- Hd in Hl.
    specialize (IH Hl (ex_intro _ e0 (ex_intro _ v0 Hin)) Hev).
    pose proof (hstep_res _ _ _ _ _ _ Hb Hg Hst) as Hh.
    inputs x Hh; cbn [req_dropped]; trivial; destruct IH as [IH|IH]; auto; right; rewrite ?IH; auto using orb_true_r.
Qed.
End One.


(* the clauses of C18.v that speak of "earlier in the trace" are those of a prefix *)
Lemma ok1_firstn : forall k id n xs h os, ok1 k id h xs os = true ->
  ok1 k id h (firstn n xs) (firstn n os) = true.
Proof.
  intros k id. induction n as [|n IH]; intros xs h os H; [reflexivity|].
  destruct xs as [|x xs], os as [|o os]; cbn in *; try discriminate; try reflexivity.
  destruct (is_panic o).
  - apply andb_prop in H as [H1 H2]. apply is_nil_eq in H2. subst. rewrite H1, firstn_nil. reflexivity.
  - destruct (hstep k id h x o); [apply IH; exact H|discriminate].
Qed.
Lemma good_firstn : forall k id n xs, good k id xs = true -> good k id (firstn n xs) = true.
Proof.
  intros k id. induction n as [|n IH]; intros [|x xs] H; cbn in *; try reflexivity.
  apply andb_prop in H as [H1 H2]. rewrite H1. apply IH. exact H2.
Qed.

Lemma hstep_settled k id h x o h' : h_bad h = false -> good_in k id x = true -> hstep k id h x o = Some h' ->
  h_out h || h_done h = true \/ events_of [o] <> [] \/ has_done [o] -> h_out h' || h_done h' = true.
Proof.
  intros Hb Hg Hst Hq. destruct (hstep_cases _ _ _ _ _ _ Hb Hg Hst) as [(e & v & d & -> & -> & _ & ->)|(c & -> & _)].
  - cbn in *. destruct Hq as [Hq|[Hq|(e0 & v0 & [[= _ _ ->]|[]])]].
    + apply orb_prop in Hq as [-> | ->]; rewrite ?orb_true_r; reflexivity.
    + destruct v; [rewrite app_nil_r in Hq; contradiction|]. rewrite orb_true_r. reflexivity.
    + rewrite !orb_true_r. reflexivity.
  - destruct (hstep_frame _ _ _ _ _ _ Hb Hg Hst) as (_ & _ & -> & ->).
    destruct Hq as [Hq|[Hq|(e0 & v0 & [[=]|[]])]]; [exact Hq|contradiction].
Qed.

(* the last clause is what C18_late_ignored asks of the rest of the trace *)
Lemma ok1_app : forall k id xs1 os1 xs2 os2 h, length xs1 = length os1 ->
  ok1 k id h (xs1 ++ xs2) (os1 ++ os2) = true -> h_bad h = false -> hwf h = true -> good k id (xs1 ++ xs2) = true ->
  exists h', ok1 k id h' xs2 os2 = true /\ h_bad h' = false /\ hwf h' = true /\
             (h_out h || h_done h = true \/ events_of os1 <> [] \/ has_done os1 -> h_out h' || h_done h' = true).
Proof.
  intros k id. induction xs1 as [|x xs1 IH]; intros [|o os1] xs2 os2 h Hl Hok Hb Hw Hg; try discriminate Hl.
  - exists h. repeat split; trivial. intros [Hq|[Hq|(e & v & [])]]; [exact Hq|contradiction].
  - cbn [app] in *. destruct (ok1_step k id _ _ _ _ _ Hok Hb Hw Hg) as (_ & Hg1 & Hg2 & h1 & Hst & Hok1 & Hb1 & Hw1).
    injection Hl as Hl. destruct (IH os1 xs2 os2 h1 Hl Hok1 Hb1 Hw1 Hg2) as (h' & Hok' & Hb' & Hw' & Hq').
    exists h'. repeat split; trivial. intros Hq. apply Hq'.
    assert (Ho : events_of (o :: os1) = events_of [o] ++ events_of os1) by (destruct o; cbn; rewrite ?app_nil_r; reflexivity).
    rewrite Ho in Hq.
    destruct Hq as [Hq|[Hq|(e & v & [Hin|Hin])]].
    + left. apply (hstep_settled _ _ _ _ _ _ Hb Hg1 Hst). auto.
    + destruct (events_of [o]) eqn:He; [right; left; exact Hq|]. left. apply (hstep_settled _ _ _ _ _ _ Hb Hg1 Hst). right. left. rewrite He. discriminate.
    + left. apply (hstep_settled _ _ _ _ _ _ Hb Hg1 Hst). right. right. exists e, v. left. exact Hin.
    + right. right. exists e, v. exact Hin.
Qed.

Lemma sok_ind (P : list srec -> list sin -> list obs -> Prop) :
  (forall st : list srec, P st [] []) ->
  (forall (st : list srec) k id xs os, has_id id st = false -> sok (st ++ [(k, id, hist0)]) xs os = true ->
     P (st ++ [(k, id, hist0)]) xs os -> P st (SStart k :: xs) (OStarted id :: os)) ->
  (forall (st : list srec) i y xs os, nth_error st i = None -> P st xs os -> P st (SOn i y :: xs) (OBad :: os)) ->
  (forall (st : list srec) i y k id h xs, nth_error st i = Some (k, id, h) -> h_bad h = true -> P st (SOn i y :: xs) [OPanic]) ->
  (forall (st : list srec) i y k id h o h' xs os, nth_error st i = Some (k, id, h) -> is_panic o = false ->
     hstep k id h y o = Some h' -> P (upd_nth st i (k, id, h')) xs os -> P st (SOn i y :: xs) (o :: os)) ->
  forall xs st os, sok st xs os = true -> P st xs os.
Proof.
  intros Hnil Hstart Hnone Hpanic Hstep. induction xs as [|[k|i y] xs IH]; intros st [|o os] H; try discriminate H; cbn [sok] in H.
  - apply Hnil.
  - destruct o; try discriminate H. apply andb_prop in H as [Hf H]. apply negb_true_iff in Hf. auto.
  - destruct (nth_error st i) as [[[k id] h]|] eqn:Hn; [|destruct o; try discriminate H; auto].
    destruct (is_panic o) eqn:Hp.
    + destruct o; try discriminate Hp. apply andb_prop in H as [Hb H]. apply is_nil_eq in H. subst. eauto.
    + destruct (hstep k id h y o) as [h'|] eqn:Hh; [eauto|discriminate H].
Qed.

Lemma proj_on_nil : forall i xs, proj_on i xs [] = [].
Proof. intros i [|[k|j x] xs]; reflexivity. Qed.
(* every timer of an accepted run of several timers is accepted by the one-timer automaton *)
Lemma sok_proj_existing : forall xs st os, sok st xs os = true -> forall i k id h,
  nth_error st i = Some (k, id, h) ->
  ok1 k id h (map fst (proj_on i xs os)) (map snd (proj_on i xs os)) = true.
Proof.
  refine (sok_ind _ _ _ _ _ _); cbn [proj_on].
  - reflexivity.
  - intros st k' id' xs os _ _ IH i k id h Hn. apply IH. rewrite nth_error_app1; [exact Hn|]. apply nth_error_Some. congruence.
  - intros st j y xs os Hj IH i k id h Hn. destruct (Nat.eqb_spec j i) as [->|_]; [congruence|]. exact (IH _ _ _ _ Hn).
  - intros st j y k' id' h' xs Hj Hb i k id h Hn. rewrite proj_on_nil.
    destruct (Nat.eqb_spec j i) as [->|_]; [|reflexivity]. pose proof (eq_trans (eq_sym Hj) Hn) as [= <- <- <-]. cbn. rewrite Hb. reflexivity.
  - intros st j y k' id' h1 o h' xs os Hj Hp Hh IH i k id h Hn. destruct (Nat.eqb_spec j i) as [->|Hne].
    + pose proof (eq_trans (eq_sym Hj) Hn) as [= <- <- <-]. cbn [map fst snd ok1]. rewrite Hp, Hh.
      apply IH. eapply nth_upd_same; eassumption.
    + apply IH. rewrite nth_upd_other by congruence. exact Hn.
Qed.

Lemma ok1_nil_r : forall k id h xs, ok1 k id h xs [] = true -> xs = [].
Proof. intros k id h [|x xs] H; [reflexivity|discriminate]. Qed.

Lemma sok_proj_new : forall xs st os, sok st xs os = true -> forall i k id l,
  timer_view (length st) i xs os = Some (k, id, l) ->
  ok1 k id hist0 (map fst l) (map snd l) = true.
Proof.
  refine (sok_ind _ _ _ _ _ _); cbn [timer_view].
  - discriminate.
  - intros st k' id' xs os _ Hok IH i k id l Hv. destruct (Nat.eqb_spec (length st) i) as [<-|Hne].
    + injection Hv as <- <- <-. apply (sok_proj_existing _ _ _ Hok). apply nth_app_last.
    + apply (IH i). rewrite app_length, Nat.add_1_r. exact Hv.
  - intros st j y xs os _ IH. exact IH.
  - intros st j y k' id' h' [|[k0|j0 y0] xs] _ _ i k id l Hv; discriminate Hv.
  - intros st j y k' id' h1 o h' xs os _ _ _ IH i k id l. rewrite upd_len in IH. exact (IH i k id l).
Qed.

Lemma has_id_in : forall id st, has_id id st = true <-> In id (ids_of st).
Proof.
  intros id st. induction st as [|[[k i] h] st IH]; cbn; [split; [discriminate|tauto]|].
  rewrite orb_true_iff, IH, N.eqb_eq. tauto.
Qed.
(* ids handed out in an accepted run are pairwise distinct *)
Lemma sok_ids_nodup : forall xs st os, sok st xs os = true -> NoDup (ids_of st) ->
  NoDup (ids_of st ++ started_ids xs os).
Proof.
  refine (sok_ind _ _ _ _ _ _); cbn [started_ids]; unfold ids_of.
  - intros st Hnd. rewrite app_nil_r. exact Hnd.
  - intros st k id xs os Hf _ IH Hnd. rewrite map_app, <- app_assoc in IH. apply IH, NoDup_snoc; [exact Hnd|].
    intros Ha. apply has_id_in in Ha. cbn in Ha. congruence.
  - intros st i y xs os _ IH. exact IH.
  - intros st i y k id h xs _ _ Hnd. replace (started_ids xs []) with (@nil N) by (destruct xs as [|[?|? ?] ?]; reflexivity).
    rewrite app_nil_r. exact Hnd.
  - intros st i y k id h o h' xs os Hn _ _ IH Hnd. rewrite map_upd_same with (b := (k, id, h)) in IH by trivial. exact (IH Hnd).
Qed.
