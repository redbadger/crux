(* Proofs about the legacy capability API model (Legacy.v): the tolerant automaton accepts the model
   for ALL input sequences (state invariant incl. the global cleared set, induction over the sequence);
   outside the two listed classes it coincides with the property as stated; ids are unique and every
   timer has at most one outcome in every accepted trace. *)
From Coq Require Import List NArith Bool Arith Lia.
From Crux Require Import Timer.Machine Timer.ListFacts Timer.Mixed Timer.MixedProofs Timer.Legacy.
Import ListNotations.

Lemma mem_ins : forall a b l, mem a (ins b l) = N.eqb a b || mem a l.
Proof.
  intros a b l. unfold ins. destruct (mem b l) eqn:Hb.
  - destruct (N.eqb a b) eqn:Hab; [|reflexivity]. apply N.eqb_eq in Hab. subst. rewrite Hb. reflexivity.
  - reflexivity.
Qed.
Lemma mem_rem : forall a b l, mem a (rem b l) = negb (N.eqb a b) && mem a l.
Proof.
  intros a b l. unfold mem, rem. induction l as [|x l IH]; simpl; [rewrite andb_false_r; reflexivity|].
  destruct (N.eqb b x) eqn:Hbx; simpl.
  - apply N.eqb_eq in Hbx. subst x. rewrite IH. destruct (N.eqb a b); reflexivity.
  - rewrite IH. destruct (N.eqb a x) eqn:Hax; simpl; [|reflexivity].
    apply N.eqb_eq in Hax. subst x. rewrite N.eqb_sym, Hbx. reflexivity.
Qed.

Lemma lhas_id_in : forall id st, lhas_id id st = true <-> In id (lids_of st).
Proof.
  intros id st. induction st as [|[[k i] h] st IH]; cbn; [split; [discriminate|tauto]|].
  rewrite orb_true_iff, IH, N.eqb_eq. tauto.
Qed.

Definition lrel (t : ltimer) (r : lrec) : Prop :=
  match r with (k, id, h) =>
    lt_kind t = k /\ lt_id t = id /\ lt_done t = lh_out h /\
    (lt_req t = LqLive -> lh_started h = true /\ lh_out h = false)
  end.

(* the global set holds exactly the ids of the timers cleared and still without outcome, and only ids that exist *)
Record linv (c0 : N) (s : lsys) (st : list lrec) : Prop := {
  li_rel : Forall2 lrel (ls_ts s) st;
  li_ids : lids_of st = first_ids c0 (length st);
  li_ctr : ls_ctr s = mix_id c0 (length st);
  li_clr : forall j k id h, nth_error st j = Some (k, id, h) -> lh_out h = false -> mem id (ls_cleared s) = lh_clr h;
  li_sub : forall a, mem a (ls_cleared s) = true -> In a (lids_of st)
}.

Lemma linv_fresh : forall c0 s st, linv c0 s st -> (N.of_nat (length st) < USIZE)%N ->
  lhas_id (ls_ctr s) st = false /\ mem (ls_ctr s) (ls_cleared s) = false.
Proof.
  intros c0 s st I Hn.
  assert (Hf : ~ In (ls_ctr s) (lids_of st)) by (rewrite (li_ids _ _ _ I), (li_ctr _ _ _ I); apply first_ids_fresh, Hn).
  split; [destruct (lhas_id _ _) eqn:E|destruct (mem _ _) eqn:E]; trivial; exfalso; apply Hf.
  - apply lhas_id_in, E.
  - apply (li_sub _ _ _ I), E.
Qed.

Lemma leffs_refl : forall e, leffs_eqb e e = true.
Proof. exact (list_eqb_refl _ _ eff_eqb_refl). Qed.
Lemma resp_eqb_refl : forall r, resp_eqb r r = true.
Proof. intros [|x|x|x]; cbn; rewrite ?N.eqb_refl; reflexivity. Qed.
Lemma lev_refl : forall a, lev_eqb a a = true.
Proof. intros [i r]. unfold lev_eqb. cbn. rewrite Nat.eqb_refl, resp_eqb_refl. reflexivity. Qed.

Lemma linv_start : forall c0 s st k rq dn h cl, linv c0 s st -> (N.of_nat (length st) < USIZE)%N ->
  (forall a, mem a cl = mem a (ls_cleared s)) ->
  dn = lh_out h -> (rq = LqLive -> lh_started h = true /\ lh_out h = false) ->
  (lh_out h = false -> lh_clr h = false) ->
  linv c0 (mkLs ((ls_ctr s + 1) mod USIZE) cl (ls_ts s ++ [mkLt k (ls_ctr s) rq dn])) (st ++ [(k, ls_ctr s, h)]).
Proof.
  intros c0 s st k rq dn h cl I Hn Hcl Hdn Hrq Hclr.
  constructor; cbn [ls_ts ls_ctr ls_cleared]; rewrite ?app_length, ?Nat.add_1_r.
  - apply Forall2_app; [exact (li_rel _ _ _ I)|]. constructor; [|constructor]. cbn. auto.
  - rewrite first_ids_S, <- (li_ids _ _ _ I), <- (li_ctr _ _ _ I). exact (map_app _ st _).
  - rewrite (li_ctr _ _ _ I). apply mix_id_succ.
  - intros j k' id h' Hj Ho. rewrite Hcl. apply nth_app_cases in Hj as [[Hl Hj]|[-> E]].
    + exact (li_clr _ _ _ I _ _ _ _ Hj Ho).
    + inversion E; subst. rewrite (proj2 (linv_fresh _ _ _ I Hn)). symmetry. apply Hclr. exact Ho.
  - intros a Ha. rewrite Hcl in Ha. unfold lids_of. rewrite map_app. apply in_or_app. left. exact (li_sub _ _ _ I _ Ha).
Qed.

Lemma linv_upd : forall c0 s st i k id h h' t' cl, linv c0 s st -> (N.of_nat (length st) <= USIZE)%N ->
  nth_error st i = Some (k, id, h) -> lrel t' (k, id, h') ->
  (forall a, a <> id -> mem a cl = mem a (ls_cleared s)) ->
  (lh_out h' = false -> mem id cl = lh_clr h') ->
  linv c0 (mkLs (ls_ctr s) cl (upd_nth (ls_ts s) i t')) (upd_nth st i (k, id, h')).
Proof.
  intros c0 s st i k id h h' t' cl I Hn Hst Hrel Hcl Hid.
  assert (Hids : lids_of (upd_nth st i (k, id, h')) = lids_of st) by (apply map_upd_same with (b := (k, id, h)); trivial).
  constructor; cbn [ls_ts ls_ctr ls_cleared]; rewrite ?upd_len, ?Hids.
  - apply F2_upd; [exact (li_rel _ _ _ I)|exact Hrel].
  - exact (li_ids _ _ _ I).
  - exact (li_ctr _ _ _ I).
  - intros j k' id' h'' Hj Ho. destruct (Nat.eq_dec j i) as [->|Hne].
    + erewrite nth_upd_same in Hj by eassumption. inversion Hj; subst. exact (Hid Ho).
    + rewrite nth_upd_other in Hj by congruence. rewrite Hcl; [exact (li_clr _ _ _ I _ _ _ _ Hj Ho)|].
      (* another entry has another id *)
      intros ->. apply Hne. apply (NoDup_map_nth _ _ (fun r => snd (fst r)) st j i _ _) with (2 := Hj) (3 := Hst); [|reflexivity].
      fold (lids_of st). rewrite (li_ids _ _ _ I). apply first_ids_nodup, Hn.
  - intros a Ha. destruct (N.eq_dec a id) as [->|Hne].
    + exact (in_map (fun r => snd (fst r)) st _ (nth_error_In _ _ Hst)).
    + rewrite Hcl in Ha by exact Hne. exact (li_sub _ _ _ I _ Ha).
Qed.

Fixpoint count_lstarts (xs : list lin) : nat :=
  match xs with [] => 0 | (LStart _ | LStartClear _) :: xs' => S (count_lstarts xs') | _ :: xs' => count_lstarts xs' end.

(* below 2^64 timers the wrapping counter's next value is still fresh *)
Theorem lok_sound_gen : forall c0 xs s st, linv c0 s st ->
  (N.of_nat (length st + count_lstarts xs) <= USIZE)%N ->
  lok false st xs (lrun s xs) = true.
Proof.
  intros c0 xs. induction xs as [|x xs IH]; intros s st I Hn; cbn [lrun]; [reflexivity|].
  destruct x as [k|k|i|i r|i|]; cbn [lstep count_lstarts] in *.
  (* a timer that does not exist is answered LBad by both sides: one goal per input is left *)
  3-5: cbn [lok]; destruct (nth_error st i) as [[[k id] h]|] eqn:Hst;
    [destruct (F2_nth _ _ _ _ _ (li_rel _ _ _ I) Hst) as [t [Ht Hrel]]; pose proof Hrel as (Hk & Hid & Hd & Hr); rewrite Ht
    |rewrite (F2_none _ _ _ _ (li_rel _ _ _ I) Hst); apply IH; assumption].
  - (* LStart *)
    assert (Hlt : (N.of_nat (length st) < USIZE)%N) by lia.
    destruct (linv_fresh _ _ _ I Hlt) as [Hnew Hmem]. rewrite Hmem. cbn [lok].
    rewrite Hnew, leffs_refl. cbn [negb andb levs_eqb list_eqb].
    apply IH.
    + apply linv_start; auto; cbn; intros; try discriminate; auto.
    + rewrite app_length. cbn. lia.
  - (* LStartClear: the id enters the set and leaves it again in the same call *)
    assert (Hlt : (N.of_nat (length st) < USIZE)%N) by lia.
    destruct (linv_fresh _ _ _ I Hlt) as [Hnew Hmem]. cbn [lok]. rewrite Hnew, leffs_refl.
    rewrite (F2_len _ _ _ (li_rel _ _ _ I)). cbn [negb andb levs_eqb list_eqb]. rewrite lev_refl. cbn [andb].
    apply IH.
    + apply linv_start; auto; cbn; try (intros; discriminate).
      intros a. rewrite mem_rem, mem_ins. destruct (N.eqb a (ls_ctr s)) eqn:E; cbn; [|reflexivity].
      apply N.eqb_eq in E. subst. symmetry. exact Hmem.
    + rewrite app_length. cbn. lia.
  - (* LClear: the list of timers, written as an update of entry i by itself, fits [linv_upd] *)
    rewrite Hid. cbn [levs_eqb list_eqb andb]. rewrite leffs_refl. rewrite <- (upd_nth_id _ _ _ _ Ht).
    assert (Hcl : forall a, a <> id -> mem a (ins id (ls_cleared s)) = mem a (ls_cleared s)).
    { intros a Ha. rewrite mem_ins. apply N.eqb_neq in Ha. rewrite Ha. reflexivity. }
    destruct (lh_out h) eqn:Ho; cbn [andb].
    + apply IH; [|exact Hn]. rewrite <- (upd_nth_id _ _ _ _ Hst).
      apply (linv_upd _ _ _ _ _ _ h); auto; [lia|congruence].
    + apply IH; [|rewrite upd_len; exact Hn].
      apply (linv_upd _ _ _ _ _ _ h); auto; [lia| |intros _; rewrite mem_ins, N.eqb_refl; reflexivity].
      cbn. repeat split; auto. apply Hr. assumption.
  - (* LFire *)
    destruct (lt_req t) eqn:Hq; try (cbn [leffs_eqb list_eqb levs_eqb N.eqb andb]; apply IH; assumption).
    destruct (Hr eq_refl) as [Hs' Ho]. rewrite Hd, Ho, Hid.
    assert (Hinv' : forall cl, (forall a, a <> id -> mem a cl = mem a (ls_cleared s)) ->
              linv c0 (mkLs (ls_ctr s) cl (upd_nth (ls_ts s) i (mkLt (lt_kind t) id LqUsed true)))
                      (upd_nth st i (k, id, mkLh true false true))).
    { intros cl Hcl. apply (linv_upd _ _ _ _ _ _ h); auto; [lia| |discriminate]. cbn. repeat split; auto. congruence. }
    pose proof (li_clr _ _ _ I _ _ _ _ Hst Ho) as Hm.
    destruct (mem id (ls_cleared s)) eqn:Hmem; cbn [lok leffs_eqb list_eqb N.eqb andb]; rewrite Hs', <- Hm;
      cbn [negb andb levs_eqb list_eqb]; rewrite lev_refl; cbn [andb];
      (apply IH; [|rewrite upd_len; exact Hn]); apply Hinv'; [|reflexivity].
    intros a Ha. rewrite mem_rem. apply N.eqb_neq in Ha. rewrite Ha. reflexivity.
  - (* LDropReq *)
    assert (Hinv' : linv c0 (mkLs (ls_ctr s) (ls_cleared s) (upd_nth (ls_ts s) i (mkLt (lt_kind t) (lt_id t) LqDropped (lt_done t)))) st).
    { rewrite <- (upd_nth_id _ _ _ _ Hst). apply (linv_upd _ _ _ _ _ _ h); auto; [lia| |exact (li_clr _ _ _ I _ _ _ _ Hst)].
      cbn. repeat split; auto; discriminate. }
    destruct (lt_req t); try (apply IH; assumption).
  - (* LNoop *)
    cbn [lok leffs_eqb levs_eqb list_eqb andb]. apply IH; assumption.
Qed.

Definition orel (b : bool) (r : lrec) : Prop := match r with (_, _, h) => b = lh_out h end.

Lemma orel_nth : forall outs st i k id h, Forall2 orel outs st -> nth_error st i = Some (k, id, h) ->
  nth i outs false = lh_out h.
Proof.
  intros outs st i k id h H Hn. destruct (F2_nth _ _ _ _ _ H Hn) as [b [Hb Hr]].
  rewrite (nth_error_nth _ _ false Hb). exact Hr.
Qed.

(* outside the two listed classes the tolerant automaton and the property as stated coincide *)
Theorem lok_strict_on_complement : forall xs st os outs, lok false st xs os = true ->
  Forall2 orel outs st -> lclass outs xs os = 0%N -> lok true st xs os = true.
Proof.
  induction xs as [|x xs IH]; intros st os outs Hok HF Hc.
  - destruct os; [reflexivity|discriminate].
  - destruct x as [k|k|i|i r|i|]; destruct os as [|o os]; cbn [lok lclass] in *; try discriminate.
    + (* LStart; LStartClear is class 1 *)
      destruct o; try discriminate.
      apply andb_prop in Hok as [-> Hok]. cbn [andb].
      apply (IH _ _ (outs ++ [false])); auto. apply Forall2_app; [exact HF|]. constructor; [reflexivity|constructor].
    + (* LClear: after the outcome it is class 2 *)
      destruct (nth_error st i) as [[[k id] h]|] eqn:Hst.
      * destruct o; try discriminate. rewrite (orel_nth _ _ _ _ _ _ HF Hst) in Hc.
        apply andb_prop in Hok as [Hv Hok]. rewrite Hv. cbn [andb].
        destruct (lh_out h) eqn:Ho; [discriminate|].
        apply andb_prop in Hok as [He Hok]. rewrite He. cbn [andb].
        apply (IH _ _ outs); auto.
        destruct (F2_nth _ _ _ _ _ HF Hst) as [b [Hb Hr]]. eapply F2_upd_r; [exact HF|exact Hb|]. cbn in *. congruence.
      * destruct o; try discriminate.
        apply (F2_none _ _ _ _ HF), nth_error_None in Hst. rewrite (nth_overflow _ _ Hst) in Hc. apply (IH _ _ outs); auto.
    + destruct (nth_error st i) as [[[k id] h]|] eqn:Hst.
      * destruct o as [? ? ?|c e v|?|]; try discriminate.
        apply andb_prop in Hok as [He Hok]. rewrite He. cbn [andb].
        destruct (N.eqb c 0).
        -- apply andb_prop in Hok as [-> Hok]. cbn [andb].
           apply (IH _ _ (upd_nth outs i true)); auto. apply F2_upd; [exact HF|]. reflexivity.
        -- apply andb_prop in Hok as [Hv Hok]. rewrite Hv. cbn [andb]. apply (IH _ _ outs); auto.
      * destruct o as [? ? ?|c e v|?|]; try discriminate. apply (IH _ _ outs); auto.
    + destruct (nth_error st i) as [[[k id] h]|] eqn:Hst; destruct o; try discriminate; apply (IH _ _ outs); auto.
    + destruct o; try discriminate. apply andb_prop in Hok as [-> Hok]. cbn [andb].
      apply (IH _ _ outs); auto.
Qed.

Lemma levs_eqb_eq : forall a b, levs_eqb a b = true -> a = b.
Proof.
  apply list_eqb_eq. intros [i r] [j q] H. unfold lev_eqb in H. cbn in H. apply andb_prop in H as [H1 H2].
  apply Nat.eqb_eq in H1. subst. f_equal.
  destruct r, q; cbn in H2; try discriminate; try reflexivity; apply N.eqb_eq in H2; congruence.
Qed.

(* What an accepted step of either automaton does to the records: unique ids and "at most one outcome" need no
   more than this. *)
Inductive lmove (st : list lrec) (o : lobs) (st' : list lrec) : Prop :=
| LmNew k id h : lhas_id id st = false -> lstarted_ids [o] = [id] -> st' = st ++ [(k, id, h)] ->
    levents_of [o] = (if lh_out h then [(length st, RCleared id)] else []) -> lmove st o st'
| LmUpd i k id h h' r : nth_error st i = Some (k, id, h) -> lh_out h = false -> lstarted_ids [o] = [] ->
    st' = upd_nth st i (k, id, h') -> levents_of [o] = (if lh_out h' then [(i, r)] else []) -> lmove st o st'
| LmSame : lstarted_ids [o] = [] -> levents_of [o] = [] -> st' = st -> lmove st o st'.

Lemma lok_step : forall b st x xs o os, lok b st (x :: xs) (o :: os) = true ->
  exists st', lmove st o st' /\ lok b st' xs os = true.
Proof.
  intros b st x xs o os H. destruct x as [k|k|i|i r|i|]; cbn [lok] in H.
  (* LStart, LStartClear *)
  1,2: destruct o as [id e v| | |]; try discriminate H; apply andb_prop in H as [H Hok]; apply andb_prop in H as [H Hv];
    apply andb_prop in H as [Hf _]; apply negb_true_iff in Hf; apply levs_eqb_eq in Hv; subst v;
    eexists; (split; [|exact Hok]); eapply LmNew; try reflexivity; exact Hf.
  (* left: LClear, LFire, LDropReq, LNoop *)
  4: destruct o as [|c e v| |]; try discriminate H; apply andb_prop in H as [H Hok]; apply andb_prop in H as [_ Hv];
    apply levs_eqb_eq in Hv; subst v.
  (* two goals each: timer i found, not found *)
  1-3: destruct (nth_error st i) as [[[k id] h]|] eqn:Hst; destruct o as [|c e v|c|]; try discriminate H.
  (* LClear, LFire not found; LDropReq *)
  2,4,5,6: exists st; (split; [apply LmSame; reflexivity|exact H]).
  - (* LClear: no outcome is reported, so the response in LmUpd is immaterial *)
    apply andb_prop in H as [Hv H]. apply levs_eqb_eq in Hv. subst v.
    destruct (lh_out h) eqn:Ho; apply andb_prop in H as [_ Hok]; eexists; (split; [|exact Hok]).
    + apply LmSame; reflexivity.
    + eapply (LmUpd _ _ _ i k id h _ RNow Hst Ho); reflexivity.
  - (* LFire *)
    apply andb_prop in H as [_ H]. destruct (N.eqb c 0).
    + apply andb_prop in H as [H Hok]. apply andb_prop in H as [H Hv]. apply andb_prop in H as [_ Ho].
      apply negb_true_iff in Ho. apply levs_eqb_eq in Hv. subst v. eexists. split; [|exact Hok].
      eapply (LmUpd _ _ _ i k id h _ _ Hst Ho); reflexivity.
    + apply andb_prop in H as [Hv Hok]. apply levs_eqb_eq in Hv. subst v.
      exists st. split; [apply LmSame; reflexivity|exact Hok].
  - (* LNoop *)
    exists st. split; [apply LmSame; reflexivity|exact Hok].
Qed.

(* ids handed out by the legacy API in an accepted run are pairwise distinct *)
Lemma lok_ids_nodup : forall b xs st os, lok b st xs os = true -> NoDup (lids_of st) ->
  NoDup (lids_of st ++ lstarted_ids os).
Proof.
  intros b. induction xs as [|x xs IH]; intros st [|o os] Hok Hnd; try discriminate Hok; [|destruct x; discriminate Hok|].
  { cbn. rewrite app_nil_r. exact Hnd. }
  destruct (lok_step _ _ _ _ _ _ Hok) as (st' & M & Hok').
  replace (lstarted_ids (o :: os)) with (lstarted_ids [o] ++ lstarted_ids os) by (destruct o; reflexivity).
  specialize (IH st' os Hok').
  destruct M as [k id h Hf -> -> _|i k id h h' r Hst _ -> -> _| -> _ ->]; unfold lids_of in *.
  - rewrite map_app, <- app_assoc in IH. apply IH, NoDup_snoc; [exact Hnd|].
    intros Hin. apply lhas_id_in in Hin. cbn in Hin. congruence.
  - rewrite map_upd_same with (b := (k, id, h)) in IH by trivial. exact (IH Hnd).
  - exact (IH Hnd).
Qed.

(* a timer that does not exist yet may be started later *)
Definition lbudget (st : list lrec) (i : nat) : nat :=
  match nth_error st i with Some (_, _, h) => if lh_out h then 0 else 1 | None => 1 end.

Lemma lmove_budget : forall st o st' j, lmove st o st' ->
  count_for j (levents_of [o]) + lbudget st' j <= lbudget st j.
Proof.
  intros st o st' j [k id h _ _ -> -> |i k id h h' r Hst Ho _ -> -> | _ -> ->]; unfold lbudget, count_for; [| |cbn; lia].
  - destruct (Nat.lt_total j (length st)) as [Hl|[->|Hl]].
    + rewrite nth_error_app1 by exact Hl. destruct (lh_out h); cbn; [|lia].
      destruct (Nat.eqb_spec (length st) j); [lia|cbn; lia].
    + rewrite nth_app_last, (proj2 (nth_error_None st _) (le_n _)). destruct (lh_out h); cbn; rewrite ?Nat.eqb_refl; cbn; lia.
    + rewrite !(proj2 (nth_error_None _ j)) by (rewrite ?app_length; cbn; lia).
      destruct (lh_out h); cbn; [|lia]. destruct (Nat.eqb_spec (length st) j); [lia|cbn; lia].
  - destruct (Nat.eq_dec j i) as [->|Hne].
    + rewrite (nth_upd_same _ _ _ _ _ Hst), Hst, Ho. destruct (lh_out h'); cbn; rewrite ?Nat.eqb_refl; cbn; lia.
    + rewrite nth_upd_other by exact Hne. destruct (lh_out h'); cbn; [|lia]. destruct (Nat.eqb_spec i j); [congruence|cbn; lia].
Qed.

(* at most one outcome per timer, none after its outcome *)
Lemma lok_one_outcome : forall b xs st os, lok b st xs os = true ->
  forall i, count_for i (levents_of os) <= lbudget st i.
Proof.
  intros b. induction xs as [|x xs IH]; intros st [|o os] Hok j; try discriminate Hok; [|destruct x; discriminate Hok|].
  { cbn. lia. }
  destruct (lok_step _ _ _ _ _ _ Hok) as (st' & M & Hok').
  replace (levents_of (o :: os)) with (levents_of [o] ++ levents_of os) by (destruct o; cbn; rewrite ?app_nil_r; reflexivity).
  unfold count_for in *. rewrite filter_app, app_length.
  pose proof (lmove_budget _ _ _ j M). specialize (IH st' os Hok' j). unfold count_for in *. lia.
Qed.
