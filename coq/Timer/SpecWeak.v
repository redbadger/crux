(* Accepted traces stay accepted when the done flag of every run is forgotten (a host such as Core
   cannot observe is_done of a hosted command): Spec.weak1 / Spec.weak rewrite the observations, and
   [Spec.undone] is the history such a host can know, with h_done := h_out. *)
From Coq Require Import List NArith Bool Arith Lia.
From Crux Require Import Timer.Machine Timer.Spec Timer.ListFacts Timer.SpecProofs.
Import ListNotations.

(* a bad history accepts any observation, one per input, and only asks that a panic ends the trace *)
Lemma bad_any : forall k id xs h h' os b, h_bad h = true -> h_bad h' = true -> ok1 k id h xs os = true ->
  ok1 k id h' xs (weak1 b os) = true.
Proof.
  intros k id. induction xs as [|x xs IH]; intros h h' os b Hb Hb' Hok; destruct os as [|o os]; cbn in *; try discriminate; auto.
  unfold hstep in *. rewrite Hb in Hok. rewrite Hb'. cbn in *.
  destruct o; cbn in *; try (apply (IH h); assumption).
  apply is_nil_eq in Hok. subst. reflexivity.
Qed.
Lemma bad_absorbs : forall k id xs h os b, h_bad h = true -> ok1 k id h xs os = true ->
  ok1 k id h xs (weak1 b os) = true.
Proof. intros k id xs h os b Hb. exact (bad_any k id xs h h os b Hb Hb). Qed.

Lemma undone_bad : forall h, h_bad (undone h) = h_bad h. Proof. reflexivity. Qed.
Lemma undone_out : forall h, h_out (undone h) = h_out h. Proof. reflexivity. Qed.

Lemma hwf_facts : forall h, hwf h = true ->
  (h_out h = true -> h_done h = true) /\
  (h_done h = true -> h_out h = false ->
     h_started h = true /\ h_pend h = false /\ h_hdl h = false /\
     (h_clr h = false -> h_app h = false) /\ (h_clr h = true -> h_ans h = false)).
Proof.
  intros [hs hp hf ha hh hc hn hd ho hdn hb] H. unfold hwf in H. cbn in *.
  destruct ho, hdn; cbn in H; rewrite ?andb_true_r, ?andb_false_r in H; try discriminate;
    (split; [intros; try reflexivity; discriminate|]); intros H1 H2; try discriminate.
  destruct hs, hp, hh, hc, ha, hn; cbn in H; try discriminate; repeat split; intros; try reflexivity; try discriminate.
Qed.

Lemma hstep_bad_or_wf : forall k id h x o h1, hstep k id h x o = Some h1 -> h_bad h = false -> hwf h = true ->
  h_bad h1 = true \/ hwf h1 = true.
Proof.
  intros k id h x o h1 Hst Hb Hw.
  destruct (good_in k id x) eqn:Hg.
  { right. exact (proj2 (hstep_good _ _ _ _ _ _ Hst Hb Hg Hw)). }
  (* a response of the wrong kind or id *)
  unfold hstep in Hst. rewrite Hb in Hst.
  destruct x as [|r| | | |r| ]; cbn in Hg; try discriminate; destruct o as [e v d|c| | | ]; try discriminate Hst;
    rewrite Hg in Hst; (destruct (N.eqb c 0); [|destruct (N.eqb c 3); [discriminate|injection Hst as <-; auto]]).
  - destruct (negb (h_started h)); [discriminate|]. destruct (h_done h && _ && _); [discriminate|].
    destruct (live h && _); injection Hst as <-; auto.
  - destruct (negb (h_clr h)); [discriminate|]. destruct (h_done h && _); [discriminate|].
    destruct (live h); injection Hst as <-; auto.
Qed.

Lemma hstep_weak : forall k id h x o h1, hstep k id h x o = Some h1 -> h_bad h = false -> hwf h = true ->
  match o with
  | OPoll e v d => hstep k id (undone h) x (OPoll e v (h_out h || negb (is_nil v))) = Some (undone h1)
                   /\ h_out h1 = h_out h || negb (is_nil v)
  | _ => hstep k id (undone h) x o = Some (undone h1) /\ h_out h1 = h_out h
  end.
Proof.
  intros k id h x o h1 Hst Hb Hw.
  destruct (hwf_facts h Hw) as [Fod Fev].
  unfold hstep in Hst |- *. rewrite undone_bad, Hb in *.
  destruct h as [hs hp hf ha hh hc hn hd ho hdn hb]. cbn in Hb, Fod, Fev. subst hb.
  destruct x as [|r| | | |r| ]; destruct o as [e v d|c| | | ]; try discriminate Hst;
    cbn [h_bad h_started h_pend h_fired h_app h_hdl h_clr h_ans h_drop h_out h_done live undone] in *.
  - destruct (chk_poll _ _ _ _ _ _) eqn:Hc; [|discriminate]. inversion Hst; subst; clear Hst.
    apply chk_poll_shape in Hc.
    inversion Hc; subst; clear Hc;
      cbn [h_bad h_started h_pend h_fired h_app h_hdl h_clr h_ans h_drop h_out h_done] in *; subst.
    2-8: apply orb_false_elim in H as [-> ->]; try destruct k; cbn; rewrite ?N.eqb_refl; cbn; split; reflexivity.
    (* after the outcome, or gone without one *)
    destruct ho.
    + rewrite (Fod eq_refl). cbn. split; reflexivity.
    + cbn in H. subst hdn. destruct (Fev eq_refl eq_refl) as [-> [-> [-> [Fa Fn]]]].
      destruct hc; [rewrite (Fn eq_refl)|rewrite (Fa eq_refl)]; cbn; split; reflexivity.
  - destruct (c =? 0)%N; [|destruct (c =? 3)%N; inversion Hst; subst; split; reflexivity].
    destruct hs; cbn in *; [|discriminate].
    destruct ho, hdn, hc; cbn in *; try discriminate; try (specialize (Fod eq_refl); discriminate);
      destruct (is_ok (class_start k id r)); inversion Hst; subst; split; reflexivity.
  - destruct (c =? 3)%N; [|inversion Hst; subst; split; reflexivity].
    destruct hs; inversion Hst; subst; split; reflexivity.
  - inversion Hst; subst; clear Hst. unfold set_app, live. cbn.
    destruct ho, hdn; cbn; try (specialize (Fod eq_refl); discriminate); try (split; reflexivity).
    destruct (Fev eq_refl eq_refl) as [_ [_ [-> _]]]. cbn. split; reflexivity.
  - inversion Hst; subst; split; reflexivity.
  - destruct (c =? 0)%N; [|destruct (c =? 3)%N; inversion Hst; subst; split; reflexivity].
    destruct hc; cbn in *; [|discriminate].
    destruct ho, hdn; cbn in *; try discriminate; try (specialize (Fod eq_refl); discriminate);
      destruct (is_ok (class_clear id r)); inversion Hst; subst; split; reflexivity.
  - destruct (c =? 3)%N; [|inversion Hst; subst; split; reflexivity].
    destruct hc; inversion Hst; subst; split; reflexivity.
Qed.

Theorem weak1_ok : forall k id xs h os, ok1 k id h xs os = true -> (h_bad h = true \/ hwf h = true) ->
  ok1 k id (undone h) xs (weak1 (h_out h) os) = true.
Proof.
  intros k id. induction xs as [|x xs IH]; intros h os Hok Hw.
  { destruct os; cbn in *; [reflexivity|discriminate]. }
  destruct (h_bad h) eqn:Hb. { apply (bad_any k id _ h); assumption. }
  destruct Hw as [Hw|Hw]; [discriminate|].
  destruct os as [|o os]; cbn [ok1 weak1] in *; try discriminate.
  destruct (is_panic o) eqn:Hp. { rewrite Hb in Hok. discriminate. }
  destruct (hstep k id h x o) as [h1|] eqn:Hst; [|discriminate].
  pose proof (hstep_bad_or_wf _ _ _ _ _ _ Hst Hb Hw) as Hw1. pose proof (hstep_weak _ _ _ _ _ _ Hst Hb Hw) as Hm.
  destruct o as [e v d|c| | | ]; cbn [weak1 ok1 is_panic] in *; try discriminate;
    destruct Hm as [Hm Ho]; rewrite Hm, <- Ho; apply IH; assumption.
Qed.


(* b is the outcome flag that [weak] keeps for the timer *)
Definition usrec (r : srec) : srec := match r with (k, id, h) => (k, id, undone h) end.
Definition wrel (b : bool) (r : srec) : Prop :=
  match r with (k, id, h) => h_bad h = true \/ (hwf h = true /\ b = h_out h) end.

Lemma upd_map_us : forall st i k id h,
  upd_nth (map usrec st) i (k, id, undone h) = map usrec (upd_nth st i (k, id, h)).
Proof. intros. rewrite map_upd. reflexivity. Qed.
Lemma has_id_us : forall id st, has_id id (map usrec st) = has_id id st.
Proof. intros id st. induction st as [|[[k i] h] st IH]; cbn; [reflexivity|]. rewrite IH. reflexivity. Qed.
Lemma weak_nil : forall outs xs, weak outs xs [] = [].
Proof. intros outs [|[k|i x] xs]; reflexivity. Qed.

Theorem weak_sok : forall xs st os, sok st xs os = true -> forall outs, Forall2 wrel outs st ->
  sok (map usrec st) xs (weak outs xs os) = true.
Proof.
  refine (sok_ind _ _ _ _ _ _); cbn [weak sok].
  - reflexivity.
  - intros st k id xs os Hf _ IH outs HF. rewrite has_id_us, Hf. cbn [negb andb].
    specialize (IH (outs ++ [false])). rewrite map_app in IH. apply IH.
    apply Forall2_app; [exact HF|]. constructor; [|constructor]. cbn. right. split; reflexivity.
  - intros st i y xs os Hn IH outs HF. rewrite nth_error_map, Hn. exact (IH outs HF).
  - intros st i y k id h xs Hn Hb outs HF. rewrite nth_error_map, Hn. cbn. rewrite Hb, weak_nil. reflexivity.
  - intros st i y k id h o h1 xs os Hn Hp Hh IH outs HF.
    destruct (F2_nth _ _ _ _ _ HF Hn) as [b [Hb Hrel]].
    assert (Hw : forall o' outs', is_panic o' = false -> hstep k id (undone h) y o' = Some (undone h1) ->
              Forall2 wrel outs' (upd_nth st i (k, id, h1)) ->
              sok (map usrec st) (SOn i y :: xs) (o' :: weak outs' xs os) = true).
    { intros o' outs' Hp' Hh' HF'. cbn [sok]. rewrite nth_error_map, Hn. cbn [option_map usrec]. rewrite Hp', Hh', upd_map_us.
      exact (IH outs' HF'). }
    destruct (h_bad h) eqn:Hbad.
    + assert (h1 = h) by (unfold hstep in Hh; rewrite Hbad in Hh; congruence). subst h1.
      assert (Hany : forall o', hstep k id (undone h) y o' = Some (undone h))
        by (intros; unfold hstep; rewrite undone_bad, Hbad; reflexivity).
      destruct o as [e v d|c| | | ]; try discriminate Hp; cbn [weak]; apply Hw; trivial;
        [apply F2_upd; [exact HF|] | eapply F2_upd_r; [exact HF|exact Hb|] ..]; left; exact Hbad.
    + destruct Hrel as [Hrel|[Hwf Hout]]; [congruence|].
      pose proof (hstep_bad_or_wf _ _ _ _ _ _ Hh Hbad Hwf) as Hw1.
      pose proof (hstep_weak _ _ _ _ _ _ Hh Hbad Hwf) as Hm.
      assert (Hr : forall b', b' = h_out h1 -> wrel b' (k, id, h1)) by (intros b' ->; destruct Hw1; [left|right]; auto).
      destruct o as [e v d|c| | | ]; try discriminate Hp; cbn [weak]; destruct Hm as [Hm Ho].
      (* not a run: the outcome flag stays *)
      2-4: apply Hw; trivial; (eapply F2_upd_r; [exact HF|exact Hb|]); apply Hr; congruence.
      rewrite (nth_error_nth _ _ false Hb), Hout. apply Hw; trivial. apply F2_upd; [exact HF|]. apply Hr. symmetry. exact Ho.
Qed.
