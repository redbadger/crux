(* Facts about lists used throughout Timer/. *)
From Coq Require Import List Arith NArith Lia.
From Crux Require Import Timer.Machine.
Import ListNotations.

Lemma nth_upd_same : forall A (l : list A) i a b, nth_error l i = Some b -> nth_error (upd_nth l i a) i = Some a.
Proof. induction l as [|c l IH]; intros [|i] a b H; cbn in *; try discriminate; eauto. Qed.
Lemma nth_upd_other : forall A (l : list A) i j a, i <> j -> nth_error (upd_nth l j a) i = nth_error l i.
Proof.
  induction l as [|c l IH]; intros [|i] [|j] a H; cbn; try reflexivity; try congruence.
  apply IH. congruence.
Qed.
Lemma upd_len : forall A (l : list A) i a, length (upd_nth l i a) = length l.
Proof. induction l as [|b l IH]; intros [|i] a; cbn; auto. Qed.
Lemma upd_nth_id : forall A (l : list A) i a, nth_error l i = Some a -> upd_nth l i a = l.
Proof. induction l as [|b l IH]; intros [|i] a H; cbn in *; try discriminate; [congruence|f_equal; auto]. Qed.
Lemma map_upd : forall A B (f : A -> B) l i a, map f (upd_nth l i a) = upd_nth (map f l) i (f a).
Proof. induction l as [|b l IH]; intros [|i] a; cbn; try reflexivity. f_equal. apply IH. Qed.

Lemma map_upd_same : forall A B (f : A -> B) l i a b, nth_error l i = Some b -> f a = f b ->
  map f (upd_nth l i a) = map f l.
Proof. intros A B f l i a b Hn E. rewrite map_upd, E. apply upd_nth_id. rewrite nth_error_map, Hn. reflexivity. Qed.

Lemma nth_app_last : forall A (l : list A) a, nth_error (l ++ [a]) (length l) = Some a.
Proof. intros. rewrite nth_error_app2 by lia. rewrite Nat.sub_diag. reflexivity. Qed.
Lemma nth_app_cases : forall A (l : list A) a j b, nth_error (l ++ [a]) j = Some b ->
  (j < length l /\ nth_error l j = Some b) \/ (j = length l /\ b = a).
Proof.
  intros A l a j b H. destruct (Nat.lt_ge_cases j (length l)) as [Hl|Hl].
  - left. split; [exact Hl|]. rewrite nth_error_app1 in H by exact Hl. exact H.
  - right. rewrite nth_error_app2 in H by exact Hl. destruct (j - length l) as [|m] eqn:E.
    + cbn in H. inversion H. split; [lia|reflexivity].
    + cbn in H. destruct m; discriminate.
Qed.

Section Forall2.
  Context {A B : Type} (R : A -> B -> Prop).
  Lemma F2_len : forall l1 l2, Forall2 R l1 l2 -> length l1 = length l2.
  Proof. intros l1 l2 H. induction H; cbn; congruence. Qed.
  Lemma F2_nth : forall l1 l2 i b,
    Forall2 R l1 l2 -> nth_error l2 i = Some b -> exists a, nth_error l1 i = Some a /\ R a b.
  Proof.
    intros l1 l2 i b H. revert i. induction H as [|a0 b0 l1 l2 Hab H IH]; intros [|i] Hn; cbn in Hn; try discriminate.
    - inversion Hn; subst. exists a0. split; [reflexivity|assumption].
    - apply IH. exact Hn.
  Qed.
  Lemma F2_none : forall l1 l2 i, Forall2 R l1 l2 -> nth_error l2 i = None -> nth_error l1 i = None.
  Proof.
    intros l1 l2 i H. revert i. induction H as [|a b l1 l2 Hab H IH]; intros [|i] Hn; cbn in *; try discriminate; auto.
  Qed.
  Lemma F2_upd : forall l1 l2 i a b, Forall2 R l1 l2 -> R a b -> Forall2 R (upd_nth l1 i a) (upd_nth l2 i b).
  Proof.
    intros l1 l2 i a b H. revert i. induction H as [|a0 b0 l1 l2 Hab H IH]; intros [|i] Hr; cbn; constructor; auto.
  Qed.
  Lemma F2_upd_r : forall l1 l2 i a b, Forall2 R l1 l2 -> nth_error l1 i = Some a -> R a b -> Forall2 R l1 (upd_nth l2 i b).
  Proof. intros l1 l2 i a b H Hn Hr. rewrite <- (upd_nth_id _ l1 i a Hn). apply F2_upd; assumption. Qed.
End Forall2.

Lemma NoDup_snoc : forall A (l : list A) a, NoDup l -> ~ In a l -> NoDup (l ++ [a]).
Proof.
  induction l as [|b l IH]; intros a Hnd Hn; cbn.
  - constructor; [intros []|constructor].
  - inversion Hnd; subst. constructor.
    + rewrite in_app_iff. cbn. intros [H|[H|[]]]; [contradiction|]. subst. apply Hn. left. reflexivity.
    + apply IH; [assumption|]. intros H. apply Hn. right. exact H.
Qed.

Lemma NoDup_map_nth : forall A B (f : A -> B) l i j a b, NoDup (map f l) ->
  nth_error l i = Some a -> nth_error l j = Some b -> f a = f b -> i = j.
Proof.
  intros A B f l i j a b Hnd Hi Hj E. apply (proj1 (NoDup_nth_error (map f l)) Hnd).
  - rewrite map_length. apply nth_error_Some. congruence.
  - rewrite !nth_error_map, Hi, Hj. cbn. congruence.
Qed.

Lemma list_eqb_eq : forall A (f : A -> A -> bool), (forall a b, f a b = true -> a = b) ->
  forall l1 l2, list_eqb f l1 l2 = true -> l1 = l2.
Proof.
  intros A f Hf. induction l1 as [|a l1 IH]; intros [|b l2] H; cbn in H; try discriminate; [reflexivity|].
  apply andb_prop in H as [H1 H2]. f_equal; auto.
Qed.
Lemma list_eqb_refl : forall A (f : A -> A -> bool), (forall a, f a a = true) -> forall l, list_eqb f l l = true.
Proof. intros A f Hf. induction l as [|a l IH]; cbn; [reflexivity|]. rewrite Hf, IH. reflexivity. Qed.
Lemma eff_eqb_refl : forall e, eff_eqb e e = true.
Proof. intros []; apply N.eqb_refl. Qed.
