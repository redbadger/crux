(* Every input keeps the invariant [inv] that ties the machine's state to the history automaton of Spec.v. *)
From Coq Require Import List NArith Bool Arith.
From Crux Require Import Timer.Machine Timer.Spec Timer.ListFacts.
Import ListNotations.

Definition settled (t : timer) : Prop := run_task t = (t, [], [], false).

Lemma poll_chan_again c c1 rp : poll_chan c = (c1, rp) ->
  poll_chan c1 = (c1, match rp with RpReady _ => RpPending false | _ => rp end).
Proof.
  unfold poll_chan. destruct c as [tx buf rx w]; cbn.
  destruct rx; [destruct buf; [|destruct tx]|]; intros [= <- <-]; reflexivity.
Qed.

Lemma run_task_settles : forall t t1 e v,
  run_task t = (t1, e, v, false) -> settled t1.
Proof.
  intros [k id os ph wk] t1 e v H. unfold settled, run_task, poll_fut in *. cbn [t_ph t_os t_kind t_id t_wakes] in *.
  destruct ph as [|rq|rq cl|rq cl].
  - destruct os; injection H as <- _ _; reflexivity.
  - destruct (poll_chan rq) as [rq1 rp] eqn:Hp. apply poll_chan_again in Hp.
    destruct rp as [r|reg].
    + destruct (class_start k id r); [injection H as <- _ _; reflexivity|discriminate|discriminate].
    + destruct os, reg; injection H as <- _ _; cbn; rewrite ?Hp; try reflexivity.
  - destruct (poll_chan cl) as [cl1 rp] eqn:Hp. apply poll_chan_again in Hp.
    destruct rp as [r|reg].
    + destruct (class_clear id r); [injection H as <- _ _; reflexivity|discriminate|discriminate].
    + destruct reg; injection H as <- _ _; cbn; rewrite ?Hp; reflexivity.
  - injection H as <- _ _. reflexivity.
Qed.

Lemma run_n_settled : forall n t, settled t -> run_n n t = (t, [], [], false).
Proof.
  induction n as [|n IH]; intros t Hs; cbn [run_n]; [reflexivity|].
  rewrite Hs. rewrite (IH t Hs). reflexivity.
Qed.

Lemma run_n_S n t : run_n (S n) t = run_task t.
Proof.
  cbn [run_n]. destruct (run_task t) as [[[t1 e] v] p] eqn:H. destruct p; [reflexivity|].
  rewrite (run_n_settled n t1 (run_task_settles _ _ _ _ H)), !app_nil_r. reflexivity.
Qed.

Lemma run_eq k id os ph wk : run (mkTimer k id os ph wk) =
  match wk with 0 => (mkTimer k id os ph 0, [], [], false) | S _ => run_task (mkTimer k id os ph 0) end.
Proof. destruct wk; [reflexivity|apply run_n_S]. Qed.

Lemma resolve_chan_spec c r : resolve_chan c r =
  match c_tx c with
  | TLive => (mkChan TUsed (if c_rx c then Some r else None) (c_rx c) false, c_w c, 0%N)
  | TUsed => (c, false, 1%N)
  | TDropped => (c, false, 2%N)
  end.
Proof. unfold resolve_chan. destruct (c_tx c), (c_rx c); reflexivity. Qed.

Lemma add_wake_eq k id os ph wk w :
  add_wake (mkTimer k id os ph wk) w = mkTimer k id os ph (if w then S wk else wk).
Proof. destruct w; reflexivity. Qed.

Definition nz (n : nat) : bool := negb (Nat.eqb n 0).
(* The oneshot against the history's handle flags; wk is the ready queue.  A clear() or drop still to come must
   reach the task: its waker is registered or a run is queued.  A clear() the task has not seen comes with a
   queued run, so the next IPoll runs the task, as the automaton expects of a cleared timer. *)
Definition os_rel (o : osst) (h : hist) (wk : nat) : bool :=
  match o with
  | OsOpen w => h_hdl h && negb (h_app h) && (w || nz wk)
  | OsSent => negb (h_hdl h) && h_app h && nz wk
  | OsClosed => negb (h_hdl h) && negb (h_app h)
  end.
Definition tx_live (t : txst) : bool := match t with TLive => true | _ => false end.
(* The channel of the awaited request against the history's flag for it (h_pend, or h_ans for the Clear request).
   A queued answer is recorded as waiting (a wrong one sets h_bad) and comes with a queued run.  With none
   queued: a live sender still reaches the task; a dropped one the history has seen; a used one cannot be, since
   the receiver exists and the answer went into the buffer. *)
Definition buf_rel (cls : resp -> rclass) (c : chan) (pend : bool) (h : hist) (wk : nat) : bool :=
  match c_buf c with
  | Some r => c_rx c && pend && is_ok (cls r) && nz wk
  | None => negb pend && match c_tx c with TLive => c_rx c && (c_w c || nz wk) | TDropped => h_drop h | TUsed => false end
  end.
Definition os_closed (o : osst) : bool := match o with OsClosed => true | _ => false end.

Definition is_some {A} (o : option A) : bool := match o with Some _ => true | None => false end.
(* PNew: Command::new has queued the first run.  PClr: the oneshot is closed and the first request no longer
   awaited, so h_app, h_hdl, h_pend and rq are free.  PFin: a channel exists only if its request was made, and a
   task evicted without outcome left its last request (the Clear request if made) not live: the machine answers 0
   exactly to a live sender, and [hstep] rejects an accepted answer to a timer done without outcome. *)
Definition inv (k : tkind) (id : N) (t : timer) (h : hist) : bool :=
  h_bad h ||
  match t_ph t with
  | PNew => negb (h_ans h) && negb (h_started h) && negb (h_clr h) && negb (h_out h) && negb (h_done h) && negb (h_pend h)
            && os_rel (t_os t) h (t_wakes t) && nz (t_wakes t)
  | PWait rq => negb (h_ans h) && h_started h && negb (h_clr h) && negb (h_out h) && negb (h_done h)
            && os_rel (t_os t) h (t_wakes t) && buf_rel (class_start k id) rq (h_pend h) h (t_wakes t)
  | PClr rq cl => h_started h && h_clr h && negb (h_out h) && negb (h_done h) && os_closed (t_os t)
            && buf_rel (class_clear id) cl (h_ans h) h (t_wakes t)
  | PFin rq cl => (h_out h || h_done h) && implb (is_some rq) (h_started h) && implb (is_some cl) (h_clr h)
            && (h_out h || match cl with
                           | Some c => negb (tx_live (c_tx c))
                           | None => match rq with Some c => negb (tx_live (c_tx c)) | None => true end
                           end)
  end.

Definition step_ok (k : tkind) (id : N) (t : timer) (h : hist) (x : tin) : Prop :=
  let '(t', o) := tstep t x in
  if is_panic o then h_bad h = true
  else match hstep k id h x o with Some h' => inv k id t' h' = true | None => False end.


Lemma os_rel_wake o h wk : os_rel o h wk = true -> os_rel o h (S wk) = true.
Proof. destruct o as [[]| |], wk; cbn; rewrite ?andb_true_r, ?andb_false_r; congruence. Qed.

Lemma buf_rel_wake cls c p h wk : buf_rel cls c p h wk = true -> buf_rel cls c p h (S wk) = true.
Proof.
  unfold buf_rel. destruct (c_buf c), (c_tx c), (c_w c), wk; cbn; rewrite ?andb_true_r, ?andb_false_r; congruence.
Qed.

Lemma inv_wake k id t h w : inv k id t h = true -> inv k id (add_wake t w) h = true.
Proof.
  destruct w; [|trivial]. destruct t as [kk ii os ph wk]. unfold inv. cbn.
  destruct (h_bad h); [trivial|]. destruct ph; cbn; trivial; rewrite !andb_true_iff.
  - intros [[H Ho] _]. auto using os_rel_wake.
  - intros [[H Ho] Hb]. auto using os_rel_wake, buf_rel_wake.
  - intros [H Hb]. auto using buf_rel_wake.
Qed.

Lemma os_rel_flags o h wk : os_rel o h wk = true ->
  h_hdl h = (match o with OsOpen _ => true | _ => false end) /\
  h_app h = (match o with OsSent => true | _ => false end).
Proof. unfold os_rel. destruct o, (h_hdl h), (h_app h); cbn; intros; try discriminate; split; reflexivity. Qed.

Lemma os_rel_handle w h wk : os_rel (OsOpen w) h wk = true ->
  os_rel OsSent (set_app h true) (if w then S wk else wk) = true /\
  os_rel OsClosed (set_app h false) (if w then S wk else wk) = true.
Proof. unfold os_rel. cbn. destruct (h_hdl h), (h_app h), w, wk; cbn; intros [=]; split; reflexivity. Qed.

Lemma set_app_gone h : h_hdl h = false -> set_app h false = h.
Proof. destruct h; cbn; intros ->. unfold set_app; cbn. rewrite orb_false_r. reflexivity. Qed.

Lemma inv_iff k id kk ii os ph wk h : h_bad h = false ->
  inv k id (mkTimer kk ii os ph wk) h = true <->
  match ph with
  | PNew => (h_out h = false /\ h_done h = false /\ h_started h = false /\ h_clr h = false /\ h_ans h = false /\ h_pend h = false)
            /\ os_rel os h wk = true /\ nz wk = true
  | PWait rq => (h_out h = false /\ h_done h = false /\ h_started h = true /\ h_clr h = false /\ h_ans h = false)
            /\ os_rel os h wk = true /\ buf_rel (class_start k id) rq (h_pend h) h wk = true
  | PClr rq cl => (h_out h = false /\ h_done h = false /\ h_started h = true /\ h_clr h = true)
            /\ os_closed os = true /\ buf_rel (class_clear id) cl (h_ans h) h wk = true
  | PFin rq cl => h_out h || h_done h = true /\ implb (is_some rq) (h_started h) = true /\ implb (is_some cl) (h_clr h) = true
            /\ h_out h || match cl with
                          | Some c => negb (tx_live (c_tx c))
                          | None => match rq with Some c => negb (tx_live (c_tx c)) | None => true end
                          end = true
  end.
Proof.
  intros Hb. unfold inv. rewrite Hb. destruct ph; cbn; rewrite !andb_true_iff, ?negb_true_iff; tauto.
Qed.

Lemma inv_alive k id t h : h_bad h = false -> inv k id t h = true -> is_fin t = false ->
  h_out h = false /\ h_done h = false /\ h_started h = is_some (get_req t) /\ h_clr h = is_some (get_clr t).
Proof.
  destruct t as [kk ii os ph wk]. intros Hb Hi. apply inv_iff in Hi; [|exact Hb]. destruct ph; [cbn; tauto ..|discriminate].
Qed.

(* the input finds nothing to act on: the code is neither 0 nor 3, and neither side moves *)
Ltac ignored Hb Hinv := unfold hstep; rewrite Hb; exact Hinv.

Lemma step_bad k id t h x : h_bad h = true -> step_ok k id t h x.
Proof.
  intros Hb. unfold step_ok. destruct (tstep t x) as [t' o]. destruct (is_panic o); [exact Hb|].
  unfold hstep. rewrite Hb. cbn iota. unfold inv. rewrite Hb. reflexivity.
Qed.

Lemma step_handle k id os ph wk h (b : bool) : h_bad h = false -> inv k id (mkTimer k id os ph wk) h = true ->
  step_ok k id (mkTimer k id os ph wk) h (if b then IClear else IDropHandle).
Proof.
  intros Hb Hinv. pose proof Hinv as Hi. apply inv_iff in Hi; [|exact Hb]. unfold step_ok, hstep. rewrite Hb.
  destruct ph as [|rq|rq cl|rq cl].
  (* PFin, PClr: the invariant no longer reads h_app and h_hdl *)
  4:{ destruct b, os as [[]| |]; exact Hinv. }
  3:{ destruct Hi as (_ & Hos & _). destruct b, os; try discriminate Hos; exact Hinv. }
  (* PNew, PWait *)
  all: destruct Hi as (Hfl & Hos & Hrest); destruct (os_rel_flags _ _ _ Hos) as [Hh _].
  (* sender already gone: neither side moves *)
  all: destruct os as [w| |]; [|destruct b; cbn [tstep t_os is_panic]; rewrite ?Hh; cbn [andb]; rewrite (set_app_gone h Hh); exact Hinv ..].
  all: unfold live; destruct (inv_alive _ _ _ _ Hb Hinv eq_refl) as (-> & -> & _).
  all: destruct b; cbn [tstep t_os is_panic]; unfold set_os; cbn [t_kind t_id t_ph t_wakes]; rewrite ?Hh; cbn [andb negb].
  all: rewrite add_wake_eq; apply inv_iff; [exact Hb|]; (split; [exact Hfl|]); (split; [apply (os_rel_handle _ _ _ Hos)|]).
  all: destruct w; [|exact Hrest].
  (* PNew *)
  1,2: reflexivity.
  (* PWait *)
  all: exact (buf_rel_wake _ _ _ _ _ Hrest).
Qed.

Lemma buf_rel_resolve cls c p h h' wk r : c_tx c = TLive -> is_ok (cls r) = true -> buf_rel cls c p h wk = true ->
  buf_rel cls (mkChan TUsed (if c_rx c then Some r else None) (c_rx c) false) true h' (if c_w c then S wk else wk) = true.
Proof.
  unfold buf_rel. intros -> Hr. cbn. destruct (c_buf c), (c_rx c), (c_w c), wk; cbn; rewrite ?Hr, ?andb_false_r; cbn; congruence.
Qed.

Lemma buf_rel_drop cls c p h wk : buf_rel cls c p h wk = true -> buf_rel cls c p (set_drop h) wk = true.
Proof.
  unfold buf_rel. cbn. destruct (c_buf c), (c_tx c); rewrite ?andb_true_r; trivial. intros H. apply andb_prop in H as [H _]. exact H.
Qed.

Lemma drop_cases c c1 w : dropreq_chan c = (c1, w) ->
  c1 = c /\ w = false /\ drop_code c = ORes 2 \/
  drop_code c = ORes 3 /\ c_tx c1 = TDropped /\
  forall cls p h wk, buf_rel cls c p h wk = true -> buf_rel cls c1 p (set_drop h) wk = true.
Proof.
  unfold drop_code, dropreq_chan, buf_rel. destruct (c_tx c) eqn:Htx; intros [= <- <-]; auto; right; cbn.
  all: repeat split; intros cls p h wk; destruct (c_buf c); rewrite ?andb_true_r, ?andb_false_r; trivial.
  all: intros H; try discriminate H. apply andb_prop in H as [H _]. exact H.
Qed.

Lemma step_resolve k id os ph wk h (b : bool) r : h_bad h = false -> inv k id (mkTimer k id os ph wk) h = true ->
  step_ok k id (mkTimer k id os ph wk) h (if b then IAnsClr r else IFire r).
Proof.
  intros Hb Hinv. pose proof Hinv as Hi. apply inv_iff in Hi; [|exact Hb]. unfold step_ok.
  destruct ph as [|rq|rq cl|rq cl], b; cbn [tstep get_req get_clr t_ph].
  1-3: ignored Hb Hinv.
  (* left: IFire in PWait; IAnsClr, IFire in PClr; IAnsClr, IFire in PFin *)
  4: destruct cl as [cl|]; [|ignored Hb Hinv].
  5: destruct rq as [rq|]; [|ignored Hb Hinv].
  (* only a live sender takes the answer *)
  all: rewrite resolve_chan_spec; destruct (c_tx _) eqn:Htx; cbn; [|ignored Hb Hinv ..].
  all: unfold set_ph; cbn [t_kind t_id t_os t_wakes]; unfold hstep, live; rewrite Hb.
  1-3: destruct (inv_alive _ _ _ _ Hb Hinv eq_refl) as (-> & -> & Hs & ->); cbn in Hs; rewrite ?Hs; cbn.
  1-2: destruct Hi as (Hfl & Hos & Hbuf); destruct (is_ok _) eqn:Hr; [|reflexivity]; rewrite add_wake_eq;
    apply inv_iff; [exact Hb|]; (split; [exact Hfl|]); (split; [|exact (buf_rel_resolve _ _ _ _ _ _ _ Htx Hr Hbuf)]).
  - destruct (c_w rq); [apply os_rel_wake|]; exact Hos.
  - exact Hos.
  - (* IFire in PClr, late *)
    apply inv_wake, Hinv.
  - (* IAnsClr in PFin, late: there was an outcome, since this request was not dropped *)
    destruct Hi as (Hod & Hs & Hc & Hl). cbn in Hc, Hl. rewrite orb_false_r in Hl. rewrite Hc, Hl. cbn. rewrite andb_false_r.
    apply inv_wake, inv_iff; [exact Hb|]. rewrite Hl. repeat split; trivial.
  - (* IFire in PFin, late: a task gone without outcome left its last request not live: the Clear request,
       and then h_clr holds, else this one *)
    destruct Hi as (Hod & Hs & Hc & Hl). cbn in Hs. rewrite Hs.
    assert (Hig : h_done h && negb (h_out h) && negb (h_clr h) = false /\ negb (h_out h) && negb (h_done h) = false).
    { destruct (h_out h), cl as [c|]; try discriminate Hl; cbn in *; rewrite ?andb_false_r; auto.
      rewrite Hod, Hc. auto. }
    destruct Hig as [-> ->].
    apply inv_wake, inv_iff; [exact Hb|]. repeat split; trivial. destruct cl; [exact Hl|apply orb_true_r].
Qed.

Lemma step_drop k id os ph wk h (b : bool) : h_bad h = false -> inv k id (mkTimer k id os ph wk) h = true ->
  step_ok k id (mkTimer k id os ph wk) h (if b then IDropClr else IDropReq).
Proof.
  intros Hb Hinv. pose proof Hinv as Hi. apply inv_iff in Hi; [|exact Hb]. unfold step_ok.
  destruct ph as [|rq|rq cl|rq cl], b; cbn [tstep get_req get_clr t_ph].
  (* the cases are those of [step_resolve], in the same order *)
  1-3: ignored Hb Hinv.
  4: destruct cl as [cl|]; [|ignored Hb Hinv].
  5: destruct rq as [rq|]; [|ignored Hb Hinv].
  all: destruct (dropreq_chan _) as [c1 w] eqn:Hd; apply drop_cases in Hd as [(-> & -> & ->)|(-> & Htx & Hd)]; [ignored Hb Hinv|].
  all: cbn [is_panic]; unfold hstep; rewrite Hb; cbn.
  (* PWait, PClr *)
  1-3: destruct (inv_alive _ _ _ _ Hb Hinv eq_refl) as (_ & _ & Hs & Hc); cbn in Hs, Hc; rewrite ?Hs, ?Hc;
    destruct Hi as (Hfl & Hos & Hbuf); apply inv_wake, inv_iff; [exact Hb|]; (split; [exact Hfl|]); (split; [exact Hos|]).
  (* PFin *)
  4-5: destruct Hi as (Hod & Hs & Hc & Hl); cbn in Hs, Hc; rewrite ?Hs, ?Hc;
    apply inv_wake, inv_iff; [exact Hb|]; rewrite Htx; repeat split; trivial.
  - apply Hd, Hbuf.
  - apply Hd, Hbuf.
  - apply buf_rel_drop, Hbuf.
  - apply orb_true_r.
  - (* IDropReq in PFin: the last request unless there is a Clear request *)
    destruct cl; [exact Hl|apply orb_true_r].
Qed.

(* [run] empties the ready queue before it polls, so after a Pending poll the relation is needed, and holds, at
   queue length 0: a live sender has just been given the waker again. *)
Lemma poll_chan_inv cls c p h wk : buf_rel cls c p h wk = true ->
  match poll_chan c with
  | (c1, RpReady r) => p = true /\ is_ok (cls r) = true /\ nz wk = true
  | (c1, RpPending reg) => p = false /\ buf_rel cls c1 false h 0 = true /\
                           (reg = false -> tx_live (c_tx c1) = false /\ h_drop h = true)
  end.
Proof.
  unfold poll_chan, buf_rel. destruct c as [tx buf rx w]. cbn.
  destruct rx, buf as [r|], tx, p; cbn; rewrite ?andb_false_r; try discriminate; intros H.
  all: repeat split; trivial; try discriminate; apply andb_prop in H; apply H.
Qed.

Lemma buf_rel_idle cls c p h : buf_rel cls c p h 0 = true -> p = false.
Proof. unfold buf_rel. destruct (c_buf c), p; cbn; rewrite ?andb_false_r; congruence. Qed.

(* With the history opened and the flags the invariant fixes substituted, both sides compute, up to the channel. *)
Lemma step_poll k id os ph wk h : h_bad h = false -> inv k id (mkTimer k id os ph wk) h = true ->
  step_ok k id (mkTimer k id os ph wk) h IPoll.
Proof.
  intros Hb Hinv. pose proof Hinv as Hi. apply inv_iff in Hi; [|exact Hb]. unfold step_ok. cbn [tstep]. rewrite run_eq.
  destruct ph as [|rq|rq cl|rq cl].
  4:{ (* TaskState::Missing, whatever the queue holds *)
    destruct Hi as (Hod & Hrest).
    destruct wk; cbn [run_task t_ph is_panic is_fin]; unfold hstep, chk_poll; rewrite Hb, Hod; cbn [is_nil andb].
    all: apply inv_iff; [exact Hb|]; cbn; rewrite andb_false_r, !orb_false_r.
    all: split; [rewrite !orb_true_r; reflexivity|exact Hrest]. }
  all: destruct h as [hs hp hf ha hh hc hn hd ho hdn hb]; cbn in Hb, Hi; subst hb.
  - destruct Hi as ((-> & -> & -> & -> & -> & ->) & Hos & Hnz). destruct wk; [discriminate Hnz|].
    destruct (os_rel_flags _ _ _ Hos) as [Hh Ha]; cbn in Hh, Ha; subst.
    destruct os; cbn; rewrite ?eff_eqb_refl; reflexivity.
  - destruct Hi as ((-> & -> & -> & -> & ->) & Hos & Hbuf).
    destruct (os_rel_flags _ _ _ Hos) as [Hh Ha]; cbn in Hh, Ha; subst.
    destruct wk.
    + (* nothing queued: no clear() is unseen either *)
      apply buf_rel_idle in Hbuf as ->. destruct os; try discriminate Hos; exact Hinv.
    + unfold run_task, poll_fut. cbn [t_ph t_os t_kind t_id t_wakes].
      pose proof (poll_chan_inv _ _ _ _ _ Hbuf) as Hp. destruct (poll_chan rq) as [rq1 [r|reg]].
      * destruct Hp as (-> & Hr & _). destruct (class_start k id r); try discriminate Hr.
        cbn. rewrite N.eqb_refl. reflexivity.
      * destruct Hp as (-> & Hbuf1 & Hreg). cbn in Hreg.
        destruct os as [w| |]; [| |destruct reg]; cbn; rewrite ?N.eqb_refl; cbn.
        -- exact Hbuf1.
        -- (* OsSent: the select ends and the Clear request goes out *)
           reflexivity.
        -- exact Hbuf1.
        -- (* no cell took the waker: evicted, and done is allowed because the request was dropped *)
           destruct (Hreg eq_refl) as [Htx ->]. unfold inv; cbn. rewrite Htx. reflexivity.
  - destruct Hi as ((-> & -> & -> & ->) & Hos & Hbuf). destruct os; try discriminate Hos.
    destruct wk.
    + apply buf_rel_idle in Hbuf as ->. exact Hinv.
    + unfold run_task, poll_fut. cbn [t_ph t_os t_kind t_id t_wakes].
      pose proof (poll_chan_inv _ _ _ _ _ Hbuf) as Hp. destruct (poll_chan cl) as [cl1 [r|reg]].
      * destruct Hp as (-> & Hr & _). destruct (class_clear id r); try discriminate Hr. reflexivity.
      * destruct Hp as (-> & Hbuf1 & Hreg). cbn in Hreg. destruct reg; cbn; [exact Hbuf1|].
        destruct (Hreg eq_refl) as [Htx ->]. unfold inv; cbn. rewrite Htx. reflexivity.
Qed.

Lemma inv_step k id t h x : t_kind t = k -> t_id t = id -> inv k id t h = true -> step_ok k id t h x.
Proof.
  destruct t as [k' id' os ph wk]. cbn. intros <- <- Hinv. destruct (h_bad h) eqn:Hb; [apply step_bad, Hb|].
  destruct x.
  - apply step_poll; assumption.
  - apply (step_resolve _ _ _ _ _ _ false); assumption.
  - apply (step_drop _ _ _ _ _ _ false); assumption.
  - apply (step_handle _ _ _ _ _ _ true); assumption.
  - apply (step_handle _ _ _ _ _ _ false); assumption.
  - apply (step_resolve _ _ _ _ _ _ true); assumption.
  - apply (step_drop _ _ _ _ _ _ true); assumption.
Qed.

Lemma tstep_ki t x t' o : tstep t x = (t', o) -> t_kind t' = t_kind t /\ t_id t' = t_id t.
Proof.
  destruct t as [k id os ph wk]. destruct x; cbn [tstep].
  { rewrite run_eq. unfold run_task, poll_fut. cbn [t_ph t_os t_kind t_id t_wakes].
    destruct wk, ph as [|rq|rq cl|rq cl], os; try destruct (poll_chan _) as [c1 [r|[]]];
      try destruct (class_start k id r); try destruct (class_clear id r); intros [= <- _]; split; reflexivity. }
  (* IClear, IDropHandle *)
  3-4: destruct os as [[]| |]; intros [= <- _]; split; reflexivity.
  all: destruct ph as [|rq|rq cl|[rq|] [cl|]]; cbn;
    try destruct (resolve_chan _ _) as [[? []] ?]; try destruct (dropreq_chan _) as [? []];
    intros [= <- _]; split; reflexivity.
Qed.
