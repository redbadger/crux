(* Lemmas about HttpResp/Mw.v (C16).  Redirect's loop is the chain [follow]; what C16 says of a chain is proved
   from one step of it, what it says of a stack from [next_run_cons]; the model of the code satisfies [C16_ok]. *)
From Coq Require Import List NArith Bool Lia Arith.
From Crux Require Import HttpResp.Resp HttpResp.RespProofs HttpResp.Mw.
Import ListNotations.
Open Scope N_scope.

Definition shell_only (l : list mark) : Prop := Forall (fun m => exists p, m = Shell p) l.

Lemma shell_only_app a b : shell_only a -> shell_only b -> shell_only (a ++ b).
Proof. intros A B. apply Forall_app. split; assumption. Qed.
Lemma shell_only_one q : shell_only [Shell q].
Proof. repeat constructor. eexists. reflexivity. Qed.

Section Chain.
  Variable shell : request -> http_result.
  Variable parse_abs : bytes -> url_parse.
  Variable join : bytes -> bytes -> bytes + bytes.

  Notation follow := (follow shell parse_abs join).
  Notation redirect_while := (redirect_while shell parse_abs join).
  Notation redirect_impl := (redirect_impl shell parse_abs join).
  Notation redirect_spec := (redirect_spec shell parse_abs join).
  Notation probe_step := (probe_step parse_abs join).
  Notation resolve := (resolve parse_abs join).
  Notation endpoint := (endpoint shell).
  Notation answer := (answer shell).
  Notation hop := (hop shell parse_abs join).

  (* one step of the chain, without the pair pattern *)
  Lemma follow_S k q :
    follow (S k) q =
    match probe_step q (answer (clone_req q)) with
    | PStop => ([Shell (clone_req q)], HOk q)
    | PGo q' => (Shell (clone_req q) :: fst (follow k q'), snd (follow k q'))
    | PFail e => ([Shell (clone_req q)], HErr e)
    | PPanic => ([Shell (clone_req q)], HPanic)
    end.
  Proof.
    cbn [Mw.follow]. unfold answer. destruct (probe_step q _); try reflexivity. destruct (follow k q0); reflexivity.
  Qed.

  Lemma redirect_while_follow fuel : forall n count q, (n < fuel)%nat ->
    redirect_while fuel count (count + N.of_nat n) q = follow n q.
  Proof.
    induction fuel as [|f IH]; intros n count q Hf; [lia|]. cbn [Mw.redirect_while].
    destruct n as [|k].
    - rewrite N.add_0_r, N.ltb_irrefl. reflexivity.
    - rewrite (proj2 (N.ltb_lt _ _)), follow_S by lia. unfold endpoint, Mw.endpoint, answer.
      destruct (probe_step q _); try reflexivity.
      replace (count + N.of_nat (S k)) with (count + 1 + N.of_nat k) by lia.
      rewrite IH by lia. destruct (follow k q0); reflexivity.
  Qed.

  Lemma redirect_impl_spec attempts q : attempts <= 255 -> redirect_impl attempts q = redirect_spec attempts q.
  Proof.
    intros H. pose proof (redirect_while_follow 256 (N.to_nat attempts) 0 q) as E.
    rewrite N2Nat.id in E. apply E. lia.
  Qed.

  Lemma follow_bounded n : forall q, (List.length (fst (follow n q)) <= n)%nat.
  Proof.
    induction n as [|k IH]; intros q; [simpl; lia|].
    rewrite follow_S. destruct (probe_step q _); simpl; try lia. specialize (IH q0). lia.
  Qed.

  Lemma same_but_url_refl q : same_but_url q q.
  Proof. repeat split. Qed.
  Lemma same_but_url_trans a b c : same_but_url a b -> same_but_url b c -> same_but_url a c.
  Proof. intros [A1 [A2 A3]] [B1 [B2 B3]]. repeat split; congruence. Qed.

  Lemma probe_step_go q r q' : probe_step q r = PGo q' -> same_but_url q q'.
  Proof.
    unfold Mw.probe_step. destruct r as [ra | e |]; try discriminate.
    destruct (is_redirect (ra_status ra)); [|discriminate].
    destruct (location ra) as [[loc|] | e |]; try discriminate.
    - destruct (resolve (q_url q) loc); [|discriminate]. intros [= <-]. repeat split.
    - intros [= <-]. apply same_but_url_refl.
  Qed.

  Lemma follow_probes n : forall q, Forall (fun m => exists p, m = Shell p /\ probe_of q p) (fst (follow n q)).
  Proof.
    induction n as [|k IH]; intros q; [constructor|].
    assert (P0 : exists p, Shell (clone_req q) = Shell p /\ probe_of q p)
      by (eexists; split; [reflexivity | repeat split]).
    rewrite follow_S. destruct (probe_step q _) eqn:P; simpl; constructor; auto.
    apply probe_step_go in P as [M [H B]].
    eapply Forall_impl; [|apply IH]. intros m [p [E [A1 [A2 A3]]]]. exists p. split; [exact E|].
    repeat split; congruence.
  Qed.

  Lemma redirect_spec_shell_only n q : shell_only (fst (redirect_spec n q)).
  Proof.
    eapply Forall_impl; [|apply follow_probes]. intros m [p [E _]]. exists p; exact E.
  Qed.

  Lemma follow_final n : forall q q', snd (follow n q) = HOk q' -> same_but_url q q'.
  Proof.
    induction n as [|k IH]; intros q q'; [intros [= <-]; apply same_but_url_refl|].
    rewrite follow_S. destruct (probe_step q _) eqn:P; simpl; try discriminate.
    - intros [= <-]. apply same_but_url_refl.
    - intros H. eapply same_but_url_trans; [apply (probe_step_go _ _ _ P) | apply IH, H].
  Qed.

  Lemma follow_inv n q m l r : follow n q = (m :: l, r) ->
    exists k, m = Shell (clone_req q) /\
      match probe_step q (answer (clone_req q)) with
      | PStop => (l, r) = ([], HOk q)
      | PGo q' => follow k q' = (l, r)
      | PFail e => (l, r) = ([], HErr e)
      | PPanic => (l, r) = ([], HPanic)
      end.
  Proof.
    destruct n as [|k]; [discriminate|]. rewrite follow_S. intros H. exists k.
    destruct (probe_step q _); injection H as <- <- <-; auto using surjective_pairing.
  Qed.

  Lemma follow_stop k q : probe_step q (answer (clone_req q)) = PStop ->
    follow (S k) q = ([Shell (clone_req q)], HOk q).
  Proof. intros H. rewrite follow_S, H. reflexivity. Qed.

  Lemma probe_step_stop_iff q r : probe_step q r = PStop <-> exists ra, r = HOk ra /\ is_redirect (ra_status ra) = false.
  Proof.
    unfold Mw.probe_step. split.
    - destruct r as [ra | e |]; try discriminate.
      destruct (is_redirect (ra_status ra)) eqn:E; [|eauto].
      destruct (location ra) as [[loc|] | e |]; try discriminate. destruct (resolve _ loc); discriminate.
    - intros [ra [-> E]]. rewrite E. reflexivity.
  Qed.

  Lemma probe_step_go_hop q q' : probe_step q (answer (clone_req q)) = PGo q' -> hop (clone_req q) q'.
  Proof.
    unfold Mw.probe_step, Mw.hop. destruct (answer (clone_req q)) as [ra | e |]; try discriminate.
    destruct (is_redirect (ra_status ra)) eqn:E; [|discriminate].
    destruct (location ra) as [[loc|] | e |] eqn:L; try discriminate.
    - destruct (resolve (q_url q) loc) eqn:R; [|discriminate]. intros [= <-]. eauto 8.
    - intros [= <-]. eauto 8.
  Qed.

  Lemma follow_inv_go n q m l r : follow n q = (m :: l, r) -> l <> [] ->
    exists k q', m = Shell (clone_req q) /\ probe_step q (answer (clone_req q)) = PGo q' /\ follow k q' = (l, r).
  Proof.
    intros H Hl. apply follow_inv in H as [k [-> H]]. exists k.
    destruct (probe_step q _) as [|q'| |]; [|eauto| |]; injection H as -> _; contradiction.
  Qed.

  Lemma follow_consecutive n q l1 p p' l2 r :
    follow n q = (l1 ++ Shell p :: Shell p' :: l2, r) -> hop p p'.
  Proof.
    revert n q. induction l1 as [|m l1 IH]; intros n q H.
    - apply follow_inv_go in H as (k & q' & [= ->] & P & H); [|discriminate].
      apply follow_inv in H as [_ [[= ->] _]]. exact (probe_step_go_hop q q' P).
    - apply follow_inv_go in H as (k & q' & _ & _ & H); [exact (IH _ _ H)|destruct l1; discriminate].
  Qed.

  Lemma follow_last n q l p q' :
    follow n q = (l ++ [Shell p], HOk q') ->
    (exists ra, answer p = HOk ra /\ is_redirect (ra_status ra) = false /\ q_url q' = q_url p) \/ hop p q'.
  Proof.
    revert n q. induction l as [|m l IH]; intros n q H.
    - apply follow_inv in H as [k [[= ->] H]]. destruct (probe_step q _) as [|q0| |] eqn:P; try discriminate.
      + injection H as <-. left. apply probe_step_stop_iff in P as [ra [A E]]. eauto.
      + (* [follow k q0] has logged nothing, so k = 0: [follow (S k)] logs a probe whatever its answer *)
        destruct k; [|rewrite follow_S in H; destruct (probe_step q0 _); discriminate].
        injection H as <-. right. exact (probe_step_go_hop q q0 P).
    - apply follow_inv_go in H as (k & q0 & _ & _ & H); [exact (IH _ _ H)|destruct l; discriminate].
  Qed.
End Chain.

(* a fragment that leaves the stack of open middleware as it found it.  [balanced l] says nothing of l inside a
   longer log; said for every [open] and [rest], fragments compose, and [balanced] is the case of both empty. *)
Definition bal (l : list mark) : Prop := forall open rest, balanced_aux open (l ++ rest) = balanced_aux open rest.

Lemma bal_nil : bal [].
Proof. intros o r. reflexivity. Qed.
Lemma bal_app a b : bal a -> bal b -> bal (a ++ b).
Proof. intros A B o r. rewrite <- app_assoc, A, B. reflexivity. Qed.
Lemma bal_shell_only l : shell_only l -> bal l.
Proof.
  induction 1 as [|m l [p E] _ IH]; [apply bal_nil|]. subst m. intros o r. simpl. apply IH.
Qed.
Lemma bal_wrap id l : bal l -> bal (Enter id :: l ++ [Exit id]).
Proof.
  intros B o r. simpl. rewrite <- app_assoc. rewrite B. simpl. rewrite N.eqb_refl. reflexivity.
Qed.
Lemma bal_concat_repeat l n : bal l -> bal (List.concat (repeat l n)).
Proof. intros B. induction n; simpl; [apply bal_nil | apply bal_app; assumption]. Qed.
Lemma bal_balanced l : bal l -> balanced l = true.
Proof. intros B. unfold balanced. rewrite <- (app_nil_r l). rewrite B. reflexivity. Qed.

(* [count_shell]'s filter under a name; Mw.v writes it inline *)
Definition is_shell (m : mark) : bool := match m with Shell _ => true | _ => false end.

Lemma count_shell_app a b : count_shell (a ++ b) = (count_shell a + count_shell b)%nat.
Proof. unfold count_shell. rewrite filter_app, app_length. reflexivity. Qed.
Lemma count_shell_wrap id l : count_shell (Enter id :: l ++ [Exit id]) = count_shell l.
Proof. change (count_shell (l ++ [Exit id]) = count_shell l). rewrite count_shell_app. apply Nat.add_0_r. Qed.
Lemma count_shell_concat_repeat l n : count_shell (List.concat (repeat l n)) = (n * count_shell l)%nat.
Proof. induction n; simpl; [reflexivity|]. rewrite count_shell_app, IHn. reflexivity. Qed.

Section Stack.
  Variable shell : request -> http_result.
  Variable R : N -> request -> list mark * hres request.
  Notation next_run := (next_run shell R).
  Notation side_sends := (side_sends shell R).

  Lemma next_run_cons m rest q :
    next_run (m :: rest) q =
    match m with
    | MPass id add =>
        let q' := match add with Some h => add_header q h | None => q end in
        (Enter id :: fst (next_run rest q') ++ [Exit id], snd (next_run rest q'))
    | MShort id res => ([Enter id; Exit id], from_public res)
    | MIssue id pre post =>
        (Enter id :: side_sends pre ++ fst (next_run rest q) ++ side_sends post ++ [Exit id], snd (next_run rest q))
    | MRetry id n =>
        (Enter id :: List.concat (repeat (fst (next_run rest (clone_req q))) (N.to_nat n)) ++ fst (next_run rest q) ++ [Exit id],
         snd (next_run rest q))
    | MRedirect attempts =>
        match snd (R attempts q) with
        | HOk q' => (fst (R attempts q) ++ fst (next_run rest q'), snd (next_run rest q'))
        | HErr e => (fst (R attempts q), HErr e)
        | HPanic => (fst (R attempts q), HPanic)
        end
    end.
  Proof.
    destruct m as [id add | id res | id pre post | id n | attempts]; cbn [Mw.next_run].
    - destruct (next_run rest _); reflexivity.
    - reflexivity.
    - destruct (next_run rest q); reflexivity.
    - destruct (next_run rest (clone_req q)), (next_run rest q); reflexivity.
    - destruct (R attempts q) as [l1 [q' | e |]]; simpl; try reflexivity. destruct (next_run rest q'); reflexivity.
  Qed.

  Lemma next_run_pass s : forall q ids, pass_ids s = Some ids ->
    next_run s q = (map Enter ids ++ [Shell (pass_request s q)] ++ map Exit (rev ids),
                    client_send0 (shell (pass_request s q))).
  Proof.
    induction s as [|m rest IH]; intros q ids H.
    - injection H as <-. reflexivity.
    - destruct m as [id add | | | |]; try discriminate. cbn [pass_ids] in H.
      destruct (pass_ids rest) as [l|]; [|discriminate]. injection H as <-.
      assert (Q : pass_request (MPass id add :: rest) q = pass_request rest (match add with Some h => add_header q h | None => q end))
        by (destruct add; reflexivity).
      rewrite next_run_cons. cbv zeta. rewrite (IH _ l eq_refl), Q. cbn [map rev fst snd]. rewrite map_app. cbn [map].
      repeat rewrite <- app_assoc. reflexivity.
  Qed.

  Lemma pass_ids_app a b la lb : pass_ids a = Some la -> pass_ids b = Some lb -> pass_ids (a ++ b) = Some (la ++ lb).
  Proof.
    revert la. induction a as [|m a IH]; intros la Ha Hb.
    - injection Ha as <-. exact Hb.
    - destruct m as [id add | | | |]; try discriminate. cbn [pass_ids] in Ha.
      destruct (pass_ids a) as [l|]; [|discriminate]. injection Ha as <-.
      cbn [app pass_ids]. rewrite (IH l eq_refl Hb). reflexivity.
  Qed.

  Theorem client_send_order cs rs q ic ir :
    pass_ids cs = Some ic -> pass_ids rs = Some ir ->
    client_send shell R cs q rs =
    (map Enter ic ++ map Enter ir ++ [Shell (pass_request (cs ++ rs) q)] ++ map Exit (rev ir) ++ map Exit (rev ic),
     client_send0 (shell (pass_request (cs ++ rs) q))).
  Proof.
    intros Hc Hr. unfold client_send. rewrite (next_run_pass (cs ++ rs) q (ic ++ ir) (pass_ids_app _ _ _ _ Hc Hr)).
    rewrite rev_app_distr. repeat rewrite map_app. repeat rewrite <- app_assoc. reflexivity.
  Qed.

  Theorem async_same_log cs q rs : g_log (run16 shell R ACapAsync cs q rs) = g_log (run16 shell R ACapSend cs q rs).
  Proof.
    unfold run16. destruct (client_send shell R cs q rs) as [l r].
    destruct r as [ra | e |]; simpl; try reflexivity.
    unfold finish16. destruct (response_new ra); reflexivity.
  Qed.

  Theorem next_run_shell_count s : forall q k, runs s = Some k -> count_shell (fst (next_run s q)) = k.
  Proof.
    induction s as [|m rest IH]; intros q k H; [injection H as <-; reflexivity|].
    rewrite next_run_cons. destruct m as [id add | id res | id pre post | id n | attempts]; try discriminate; simpl in H |- *.
    - rewrite count_shell_wrap. apply IH, H.
    - injection H as <-. reflexivity.
    - destruct (runs rest) as [k0|]; [|discriminate]. injection H as <-.
      rewrite app_assoc, count_shell_wrap, count_shell_app, count_shell_concat_repeat, !(IH _ k0) by reflexivity. lia.
  Qed.

  (* well-nested marks need a redirect function whose own log consists of requests to the shell *)
  Hypothesis R_shell_only : forall n q, shell_only (fst (R n q)).

  Lemma side_send_shell_only s : shell_only (side_send shell R s).
  Proof.
    destruct s as [u [n|]]; [|apply shell_only_one]. unfold side_send.
    pose proof (R_shell_only n (get_request u)) as H. destruct (R n (get_request u)) as [l1 [q'| |]]; try exact H.
    apply shell_only_app; [exact H|apply shell_only_one].
  Qed.
  Lemma side_sends_shell_only l : shell_only (side_sends l).
  Proof.
    unfold Mw.side_sends. induction l; simpl; [apply Forall_nil|].
    apply shell_only_app; [apply side_send_shell_only|assumption].
  Qed.

  Lemma next_run_bal s : forall q, bal (fst (next_run s q)).
  Proof.
    induction s as [|m rest IH]; intros q; [apply bal_shell_only, shell_only_one|].
    rewrite next_run_cons. destruct m as [id add | id res | id pre post | id n | attempts]; simpl.
    - apply bal_wrap, IH.
    - apply (bal_wrap id []), bal_nil.
    - rewrite !app_assoc. apply bal_wrap. repeat apply bal_app; auto using bal_shell_only, side_sends_shell_only.
    - rewrite app_assoc. apply bal_wrap, bal_app; auto using bal_concat_repeat.
    - pose proof (bal_shell_only _ (R_shell_only attempts q)) as B.
      destruct (snd (R attempts q)); simpl; auto using bal_app.
  Qed.

  Theorem next_run_balanced s q : balanced (fst (next_run s q)) = true.
  Proof. apply bal_balanced, next_run_bal. Qed.
End Stack.

Section Refinement.
  Variable shell : request -> http_result.
  Variable parse_abs : bytes -> url_parse.
  Variable join : bytes -> bytes -> bytes + bytes.
  Notation Rimpl := (redirect_impl shell parse_abs join).
  Notation Rspec := (redirect_spec shell parse_abs join).

  Lemma side_valid_sends l : side_valid l = true -> side_sends shell Rimpl l = side_sends shell Rspec l.
  Proof.
    unfold side_sends. induction l as [|[u [n|]] l IH]; intros H; simpl in *; [reflexivity | |].
    - apply andb_prop in H as [H1 H2]. apply N.leb_le in H1.
      rewrite (redirect_impl_spec shell parse_abs join n _ H1). rewrite (IH H2). reflexivity.
    - rewrite (IH H). reflexivity.
  Qed.

  Lemma next_run_refines s : forall q, stack_valid s = true -> next_run shell Rimpl s q = next_run shell Rspec s q.
  Proof.
    induction s as [|m rest IH]; intros q H; [reflexivity|].
    apply andb_prop in H as [Hm Hr].
    (* MPass and MRetry reach the redirect function only through the rest of the stack (IH); MShort not at all *)
    destruct m as [id add | id res | id pre post | id n | attempts]; cbn [next_run]; simpl in Hm;
      rewrite ?IH by exact Hr; try reflexivity.
    - (* MIssue: its side requests *)
      apply andb_prop in Hm as [H1 H2]. rewrite (side_valid_sends pre H1), (side_valid_sends post H2). reflexivity.
    - (* MRedirect *)
      apply N.leb_le in Hm. rewrite (redirect_impl_spec shell parse_abs join attempts q Hm).
      destruct (Rspec attempts q) as [l1 [q' | e |]]; rewrite ?IH by exact Hr; reflexivity.
  Qed.

  Lemma stack_valid_app a b : stack_valid (a ++ b) = stack_valid a && stack_valid b.
  Proof. apply forallb_app. Qed.

  Theorem run_refines a cs q rs : stack_valid cs = true -> stack_valid rs = true ->
    run_impl shell parse_abs join a cs q rs = run_spec shell parse_abs join a cs q rs.
  Proof.
    intros Hc Hr. unfold run_impl, run_spec, run16, client_send.
    rewrite next_run_refines; [reflexivity|].
    rewrite stack_valid_app. destruct a; simpl; rewrite ?Hc; exact Hr.
  Qed.
End Refinement.

(* [trace16_eqb] compares header maps by [hmap_equiv], which tests [keys_nodup]: it is reflexive on a trace
   whose maps have no name twice, and the maps of a run come from [build] *)
Definition wf_map (m : hmap) : Prop := keys_nodup (map fst m) = true.
Definition wf_ra (r : hres resp_async) : Prop := match r with HOk ra => wf_map (ra_headers ra) | _ => True end.

Lemma from_protocol_wf resp : wf_ra (from_protocol resp).
Proof.
  destruct (known_status (r_status resp) && all_ascii (r_headers resp)) eqn:H.
  - apply andb_prop in H as [Hk Ha]. rewrite (from_protocol_ok resp Hk Ha). apply keys_nodup_build. reflexivity.
  - destruct (from_protocol_err resp H) as [msg E]. rewrite E. exact I.
Qed.
Lemma client_send0_wf r : wf_ra (client_send0 r).
Proof. destruct r; simpl; [apply from_protocol_wf | exact I]. Qed.
Lemma from_public_wf r : wf_ra (from_public r).
Proof.
  destruct r as [resp | e]; simpl; [|exact I].
  pose proof (from_protocol_wf resp) as W. destruct (from_protocol resp); simpl in *; auto.
Qed.

Lemma next_run_wf shell R s : forall q, wf_ra (snd (next_run shell R s q)).
Proof.
  induction s as [|m rest IH]; intros q; [apply client_send0_wf|].
  rewrite next_run_cons. destruct m; simpl; auto using from_public_wf.
  destruct (snd (R attempts q)); simpl; auto.
Qed.

Lemma header_eqb_refl h : header_eqb h h = true.
Proof. unfold header_eqb. rewrite !bytes_eqb_refl. reflexivity. Qed.
Lemma multiset_eqb_refl l : multiset_eqb l l = true.
Proof. induction l as [|h l IH]; simpl; [reflexivity|]. rewrite header_eqb_refl. exact IH. Qed.
Lemma request_eqb_refl q : request_eqb q q = true.
Proof. unfold request_eqb. rewrite !bytes_eqb_refl, multiset_eqb_refl. reflexivity. Qed.
Lemma mark_eqb_refl m : mark_eqb m m = true.
Proof. destruct m; simpl; [apply N.eqb_refl | apply N.eqb_refl | apply request_eqb_refl]. Qed.

Lemma hmap_equiv_refl m : wf_map m -> hmap_equiv m m = true.
Proof.
  intros W. unfold hmap_equiv. rewrite Nat.eqb_refl, W. simpl. rewrite !andb_true_r.
  apply forallb_forall. intros [k vs] Hin. simpl. rewrite (hm_get_In k vs m W Hin). apply list_bytes_eqb_refl.
Qed.

Definition wf_outcome (o : hres response) : Prop := match o with HOk r => wf_map (rs_headers r) | _ => True end.
Lemma outcome_eqb_refl o : wf_outcome o -> outcome_eqb o o = true.
Proof.
  destruct o as [r | e |]; simpl; intros W; [|apply http_error_eqb_refl | reflexivity].
  unfold response_eqb.
  rewrite N.eqb_refl, (hmap_equiv_refl _ W), (option_eqb_refl _ _ N.eqb_refl), (option_eqb_refl _ _ body_out_eqb_refl).
  reflexivity.
Qed.

Definition wf_trace (t : trace16) : Prop := Forall wf_outcome (g_events t).

Lemma run16_wf shell R a cs q rs : wf_trace (run16 shell R a cs q rs).
Proof.
  unfold run16, client_send.
  pose proof (next_run_wf shell R (match a with ACmdBuild => [] | _ => cs end ++ rs) q) as W.
  destruct (next_run shell R _ q) as [l [ra | e |]]; simpl in W.
  - (* [raw_response] hands its header map on, [response_new] does unless the status is 400..599 *)
    destruct a; simpl; rewrite ?response_new_spec; try destruct (_ && _); repeat constructor; exact W.
  - destruct a; repeat constructor.
  - destruct a; constructor.
Qed.

Lemma trace16_eqb_refl t : wf_trace t -> trace16_eqb t t = true.
Proof.
  intros W. unfold trace16_eqb.
  rewrite (list_eqb_refl mark_eqb); [|apply Forall_forall; intros; apply mark_eqb_refl].
  rewrite (list_eqb_refl outcome_eqb); [|eapply Forall_impl; [|exact W]; intros; apply outcome_eqb_refl; assumption].
  destruct (g_panicked t); reflexivity.
Qed.

Theorem model_ok16 shell parse_abs join a cs q rs :
  stack_valid cs = true -> stack_valid rs = true ->
  trace16_eqb (run_spec shell parse_abs join a cs q rs) (run_impl shell parse_abs join a cs q rs) = true.
Proof.
  intros Hc Hr. rewrite (run_refines shell parse_abs join a cs q rs Hc Hr).
  apply trace16_eqb_refl. apply run16_wf.
Qed.
