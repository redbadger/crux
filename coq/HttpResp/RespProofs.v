(* Lemmas about HttpResp/Resp.v (C15).  The map [from_protocol] builds holds under each name the shell's values
   in the shell's order; the clauses of C15 are read off [run_representable] by cases on the status. *)
From Coq Require Import List NArith Bool Lia.
From Crux Require HttpReq.ModelProofs.
From Crux Require Import HttpResp.Resp.
Import ListNotations.
Open Scope N_scope.

(* [bytes_eqb] and [lower] are HttpReq/Model.v's [beqb] and [lower] declared again, same bodies.
   HttpReq.ModelProofs is required without Import: it has a [lower_idem] and a [model_ok] of its own. *)
Lemma bytes_eqb_eq a b : bytes_eqb a b = true <-> a = b.
Proof. exact (ModelProofs.beqb_eq a b). Qed.
Lemma bytes_eqb_refl a : bytes_eqb a a = true.
Proof. exact (ModelProofs.beqb_refl a). Qed.
Lemma bytes_eqb_sym a b : bytes_eqb a b = bytes_eqb b a.
Proof. exact (ModelProofs.beqb_sym a b). Qed.
Lemma lower_idem b : lower (lower b) = lower b.
Proof. exact (ModelProofs.lower_idem b). Qed.

Lemma list_eqb_refl {A} (eqb : A -> A -> bool) l : Forall (fun x => eqb x x = true) l -> list_eqb eqb l l = true.
Proof. induction 1 as [|x l H _ IH]; simpl; [reflexivity|]. rewrite H. exact IH. Qed.
Lemma list_eqb_eq {A} (eqb : A -> A -> bool) : (forall x y, eqb x y = true <-> x = y) ->
  forall a b, list_eqb eqb a b = true <-> a = b.
Proof.
  intros He a. induction a as [|x a IH]; intros [|y b]; simpl; try (split; congruence).
  rewrite andb_true_iff, He, IH. split; [intros [-> ->]; reflexivity|intros [= -> ->]; auto].
Qed.
Lemma list_bytes_eqb_refl a : list_eqb bytes_eqb a a = true.
Proof. apply (list_eqb_eq _ bytes_eqb_eq). reflexivity. Qed.
Lemma option_eqb_refl {A} (eqb : A -> A -> bool) o : (forall x, eqb x x = true) -> option_eqb eqb o o = true.
Proof. intros H. destruct o; simpl; auto. Qed.

Lemma hm_get_append k k' v m :
  hm_get k (hm_append k' v m)
  = if bytes_eqb k k' then Some (match hm_get k m with Some vs => vs ++ [v] | None => [v] end) else hm_get k m.
Proof.
  induction m as [|[k2 vs] m IH]; simpl; [reflexivity|].
  destruct (bytes_eqb k' k2) eqn:E; simpl.
  - apply bytes_eqb_eq in E. subst k2. destruct (bytes_eqb k k'); reflexivity.
  - rewrite IH. destruct (bytes_eqb k k2) eqn:E2; [|reflexivity].
    apply bytes_eqb_eq in E2. subst k2. rewrite bytes_eqb_sym, E. reflexivity.
Qed.

Lemma hm_keys_append k v m :
  map fst (hm_append k v m) = if existsb (bytes_eqb k) (map fst m) then map fst m else map fst m ++ [k].
Proof.
  induction m as [|[k' vs] m IH]; simpl; [reflexivity|].
  destruct (bytes_eqb k k') eqn:E; simpl; [reflexivity|].
  rewrite IH. destruct (existsb (bytes_eqb k) (map fst m)); reflexivity.
Qed.

Lemma hm_get_none k m : hm_get k m = None <-> existsb (bytes_eqb k) (map fst m) = false.
Proof.
  induction m as [|[k' vs] m IH]; simpl; [tauto|].
  destruct (bytes_eqb k k'); [split; discriminate|exact IH].
Qed.

Lemma keys_nodup_append k v m : keys_nodup (map fst m) = true -> keys_nodup (map fst (hm_append k v m)) = true.
Proof.
  induction m as [|[k' vs] m IH]; simpl; [reflexivity|]. intros H.
  destruct (bytes_eqb k k') eqn:E; [exact H|]. apply andb_prop in H as [H1 H2].
  simpl. rewrite (IH H2), andb_true_r. apply negb_true_iff, hm_get_none.
  rewrite hm_get_append, bytes_eqb_sym, E. apply hm_get_none, negb_true_iff, H1.
Qed.

Lemma hm_get_In k vs m : keys_nodup (map fst m) = true -> In (k, vs) m -> hm_get k m = Some vs.
Proof.
  induction m as [|[k' vs'] m IH]; simpl; intros H I; [contradiction|].
  apply andb_prop in H as [H1 H2]. destruct I as [I | I].
  - injection I as -> ->. rewrite bytes_eqb_refl. reflexivity.
  - destruct (bytes_eqb k k') eqn:E; [|auto].
    apply bytes_eqb_eq in E; subst k'. apply negb_true_iff, hm_get_none in H1.
    rewrite (IH H2 I) in H1. discriminate.
Qed.
Lemma hm_get_Some_In k vs m : hm_get k m = Some vs -> In (k, vs) m.
Proof.
  induction m as [|[k' vs'] m IH]; simpl; intros H; [discriminate|].
  destruct (bytes_eqb k k') eqn:E.
  - apply bytes_eqb_eq in E. injection H as <-. left. congruence.
  - right; apply IH; exact H.
Qed.

(* [shell_values] for a key taken as it is, as the map stores it, where [shell_values] lower-cases a name *)
Definition collect (k : bytes) (hs : list (bytes * bytes)) : list bytes :=
  map snd (filter (fun h => bytes_eqb (lower (fst h)) k) hs).

Lemma shell_values_collect name hs : shell_values name hs = collect (lower name) hs.
Proof. reflexivity. Qed.

Lemma collect_app k a b : collect k (a ++ b) = collect k a ++ collect k b.
Proof. unfold collect. rewrite filter_app, map_app. reflexivity. Qed.
Lemma collect_cons k n v hs :
  collect k ((n, v) :: hs) = if bytes_eqb (lower n) k then v :: collect k hs else collect k hs.
Proof. unfold collect. simpl. destruct (bytes_eqb (lower n) k); reflexivity. Qed.

Lemma collect_nonempty_lower k hs : collect k hs <> [] -> lower k = k.
Proof.
  unfold collect. induction hs as [|h hs IH]; simpl; intros H; [congruence|].
  destruct (bytes_eqb (lower (fst h)) k) eqn:E; [|auto].
  apply bytes_eqb_eq in E. subst k. apply lower_idem.
Qed.

Lemma collect_In h hs : In h hs -> collect (lower (fst h)) hs <> [].
Proof.
  unfold collect. induction hs as [|h' hs IH]; simpl; intros H; [contradiction|].
  destruct H as [H | H].
  - subst h'. rewrite bytes_eqb_refl. simpl. congruence.
  - destruct (bytes_eqb (lower (fst h')) (lower (fst h))); simpl; [congruence | apply IH; exact H].
Qed.

(* [add_headers] without its ASCII checks *)
Definition build (hs : list (bytes * bytes)) (m : hmap) : hmap :=
  fold_left (fun m h => hm_append (lower (fst h)) (snd h) m) hs m.

Lemma add_headers_spec hs : forall m,
  if all_ascii hs then add_headers hs m = HOk (build hs m) else exists msg, add_headers hs m = HErr (EIo msg).
Proof.
  induction hs as [|[n v] hs IH]; intros m; simpl; [reflexivity|].
  destruct (is_ascii n); simpl; [|eauto]. destruct (is_ascii v); simpl; [apply IH|eauto].
Qed.

Lemma hm_get_build k hs : forall m,
  hm_get k (build hs m)
  = match collect k hs with
    | [] => hm_get k m
    | vs => Some (match hm_get k m with Some old => old ++ vs | None => vs end)
    end.
Proof.
  induction hs as [|[n v] hs IH]; intros m; [reflexivity|].
  simpl. rewrite IH, hm_get_append, collect_cons, (bytes_eqb_sym (lower n)).
  destruct (bytes_eqb k (lower n)); [|reflexivity].
  destruct (collect k hs), (hm_get k m); simpl; rewrite <- ?app_assoc; reflexivity.
Qed.
Lemma keys_nodup_build hs : forall m, keys_nodup (map fst m) = true -> keys_nodup (map fst (build hs m)) = true.
Proof. induction hs as [|[n v] hs IH]; intros m H; [exact H|]. apply IH, keys_nodup_append, H. Qed.

Definition opt_list (l : list bytes) : option (list bytes) := match l with [] => None | _ => Some l end.

Definition Inv (hs0 : list (bytes * bytes)) (m : hmap) : Prop :=
  keys_nodup (map fst m) = true /\ forall k, hm_get k m = opt_list (collect k hs0).

Lemma Inv_build hs : Inv hs (build hs []).
Proof.
  split; [apply keys_nodup_build; reflexivity|].
  intros k. rewrite hm_get_build. destruct (collect k hs); reflexivity.
Qed.

Lemma Inv_headers_same hs m : Inv hs m -> headers_same_b hs m = true.
Proof.
  intros [Hn Hg]. unfold headers_same_b. rewrite Hn, andb_true_r.
  apply andb_true_intro; split; apply forallb_forall.
  - intros h Hin. rewrite Hg, shell_values_collect.
    pose proof (collect_In h hs Hin) as Hne.
    destruct (collect (lower (fst h)) hs); [congruence|apply list_bytes_eqb_refl].
  - intros [k vs] Hin. simpl.
    pose proof (hm_get_In k vs m Hn Hin) as G. rewrite Hg in G.
    assert (L : lower k = k) by (apply (collect_nonempty_lower k hs); destruct (collect k hs); discriminate).
    rewrite shell_values_collect, L. destruct (collect k hs); [discriminate|].
    injection G as <-. exact (list_bytes_eqb_refl (_ :: _)).
Qed.

(* the empty list is where [hv_last] panics *)
Lemma Inv_nonempty hs m k vs : Inv hs m -> hm_get k m = Some vs -> vs <> [].
Proof.
  intros [_ Hg] G. rewrite Hg in G. destruct (collect k hs); simpl in G; [discriminate|]. injection G as <-. discriminate.
Qed.

(* set_body invents a content type, from_protocol removes it again: no net change *)
Lemma hm_remove_insert_absent k vs m : hm_get k m = None -> hm_remove k (hm_insert k vs m) = m.
Proof.
  induction m as [|[k' vs'] m IH]; simpl; intros H.
  - rewrite bytes_eqb_refl. reflexivity.
  - destruct (bytes_eqb k k') eqn:E; [discriminate|].
    simpl. rewrite E. simpl. f_equal. apply IH; exact H.
Qed.

Lemma set_body_roundtrip m :
  (if match hm_get CONTENT_TYPE m with Some _ => true | None => false end
   then copy_content_type m else hm_remove CONTENT_TYPE (copy_content_type m)) = m.
Proof.
  unfold copy_content_type. destruct (hm_get CONTENT_TYPE m) eqn:E; [reflexivity|].
  apply hm_remove_insert_absent; exact E.
Qed.

Lemma from_protocol_unknown r : known_status (r_status r) = false -> from_protocol r = HErr (EIo (msg_status (r_status r))).
Proof. intros H. unfold from_protocol. rewrite H. reflexivity. Qed.

Lemma from_protocol_ok r : known_status (r_status r) = true -> all_ascii (r_headers r) = true ->
  from_protocol r = HOk {| ra_status := r_status r; ra_headers := build (r_headers r) []; ra_body := r_body r |}.
Proof.
  intros Hk Ha. unfold from_protocol. rewrite Hk. simpl.
  pose proof (add_headers_spec (r_headers r) []) as A. rewrite Ha in A.
  rewrite A. simpl. rewrite set_body_roundtrip. reflexivity.
Qed.

(* in every other case an error value: the conversion never panics *)
Lemma from_protocol_err r : known_status (r_status r) && all_ascii (r_headers r) = false ->
  exists msg, from_protocol r = HErr (EIo msg).
Proof.
  intros H. destruct (known_status (r_status r)) eqn:Hk; [|eexists; apply from_protocol_unknown, Hk].
  pose proof (add_headers_spec (r_headers r) []) as A. simpl in H. rewrite H in A. destruct A as [msg A].
  unfold from_protocol. rewrite Hk, A. eexists. reflexivity.
Qed.

Lemma range_b lo hi s : (lo <=? s) && (s <? hi) = true <-> lo <= s < hi.
Proof. rewrite andb_true_iff, N.leb_le, N.ltb_lt. reflexivity. Qed.

Lemma known_status_range s : known_status s = true -> 100 <= s < 600.
Proof.
  unfold known_status. rewrite existsb_exists. intros [x [Hin E]]. apply N.eqb_eq in E. subst x.
  apply range_b. revert s Hin. apply forallb_forall. reflexivity.
Qed.

Lemma error_range s : is_client_error s || is_server_error s = (400 <=? s) && (s <? 600).
Proof.
  apply eq_true_iff_eq. unfold is_client_error, is_server_error. rewrite orb_true_iff, !range_b. lia.
Qed.

Lemma lower_CONTENT_TYPE : lower CONTENT_TYPE = CONTENT_TYPE.
Proof. vm_compute. reflexivity. Qed.

Lemma http_error_eqb_refl e : http_error_eqb e e = true.
Proof.
  destruct e as [c m b| m | m | m |]; simpl; try apply bytes_eqb_refl; try reflexivity.
  rewrite N.eqb_refl, bytes_eqb_refl, (option_eqb_refl _ _ bytes_eqb_refl). reflexivity.
Qed.
Lemma body_out_eqb_refl b : body_out_eqb b b = true.
Proof. destruct b; simpl; apply bytes_eqb_refl. Qed.

Lemma response_new_spec ra :
  response_new ra =
  if (400 <=? ra_status ra) && (ra_status ra <? 600)
  then HErr (EHttp (ra_status ra) (dec (ra_status ra)) (Some (ra_body ra)))
  else HOk {| rs_status := ra_status ra; rs_version := None; rs_headers := ra_headers ra; rs_body := Some (BBytes (ra_body ra)) |}.
Proof. unfold response_new. simpl. rewrite error_range. reflexivity. Qed.

Section Main.
  Variable mime_charset : bytes -> option bytes.
  Variable decode : option bytes -> bytes -> bytes + bytes.
  Variable json : bytes -> bytes + bytes.

  Notation run := (run mime_charset decode json).
  Notation run_cmd := (run_cmd mime_charset decode json).
  Notation run_cap := (run_cap mime_charset decode json).
  Notation decode_exp := (decode_exp mime_charset decode json).
  Notation C15_ok := (C15_ok mime_charset decode json).
  Notation expected_body := (expected_body mime_charset decode json).

  Lemma apis_agree x r : run_cmd x r = run_cap x r.
  Proof. unfold Resp.run_cmd, Resp.run_cap, finish_cmd. destruct (client_send0 r); reflexivity. Qed.

  Lemma run_cmd_run a x r : run a x r = run_cmd x r.
  Proof. destruct a; [reflexivity | symmetry; apply apis_agree]. Qed.

  Lemma passthrough a x e : run a x (RErr e) = T1 (HErr e).
  Proof. rewrite run_cmd_run. reflexivity. Qed.

  Lemma claimed_encoding_build hs :
    claimed_encoding mime_charset (build hs []) =
    HOk (match shell_content_type hs with Some v => mime_charset v | None => None end).
  Proof.
    unfold claimed_encoding, shell_content_type. rewrite hm_get_build, shell_values_collect, lower_CONTENT_TYPE.
    destruct (collect CONTENT_TYPE hs) as [|v vs]; [reflexivity|].
    (* a key that is present has a value: [hv_last] does not panic *)
    unfold hv_last. simpl. destruct (rev vs ++ [v]) eqn:R; [destruct (app_cons_not_nil _ _ _ (eq_sym R))|reflexivity].
  Qed.

  (* what Response::new makes of a representable response outside 400..599 *)
  Definition resp0 (resp : http_response) : response :=
    {| rs_status := r_status resp; rs_version := None; rs_headers := build (r_headers resp) [];
       rs_body := Some (BBytes (r_body resp)) |}.

  (* the code decodes as the conforming decoder does *)
  Lemma decode_exp_resp0 x resp :
    match expected_body x resp with
    | Some b => decode_exp x (resp0 resp) = HOk (with_body (resp0 resp) b)
    | None => exists e, decode_exp x (resp0 resp) = HErr e
    end.
  Proof.
    destruct x; unfold Resp.expected_body, Resp.decode_exp, expect_string, expect_json; simpl; [reflexivity| |].
    - rewrite claimed_encoding_build. simpl. destruct (decode _ (r_body resp)); eauto.
    - destruct (json (r_body resp)); eauto.
  Qed.

  Lemma run_representable a x resp :
    known_status (r_status resp) = true -> all_ascii (r_headers resp) = true ->
    run a x (ROk resp) =
    if (400 <=? r_status resp) && (r_status resp <? 600)
    then T1 (HErr (EHttp (r_status resp) (dec (r_status resp)) (Some (r_body resp))))
    else emit (decode_exp x (resp0 resp)).
  Proof.
    intros Hk Ha. rewrite run_cmd_run. unfold Resp.run_cmd, finish_cmd, client_send0.
    rewrite (from_protocol_ok resp Hk Ha). cbn [hbind]. rewrite response_new_spec. simpl.
    destruct ((400 <=? r_status resp) && (r_status resp <? 600)); reflexivity.
  Qed.

  Lemma run_unrepresentable a x resp :
    known_status (r_status resp) && all_ascii (r_headers resp) = false ->
    exists msg, run a x (ROk resp) = T1 (HErr (EIo msg)).
  Proof.
    intros H. rewrite run_cmd_run. unfold Resp.run_cmd, finish_cmd, client_send0.
    destruct (from_protocol_err resp H) as [msg E]. rewrite E. exists msg. reflexivity.
  Qed.

  Lemma run_unknown_status a x resp : known_status (r_status resp) = false ->
    run a x (ROk resp) = T1 (HErr (EIo (msg_status (r_status resp)))).
  Proof.
    intros H. rewrite run_cmd_run. unfold Resp.run_cmd, finish_cmd, client_send0.
    rewrite from_protocol_unknown by exact H. reflexivity.
  Qed.

  Theorem one_outcome a x r : exists o, run a x r = T1 o /\ o <> HPanic.
  Proof.
    destruct r as [resp | e]; [|rewrite passthrough; eexists; split; [reflexivity | discriminate]].
    destruct (known_status (r_status resp) && all_ascii (r_headers resp)) eqn:H.
    - apply andb_prop in H as [Hk Ha]. rewrite (run_representable a x resp Hk Ha).
      destruct ((400 <=? r_status resp) && (r_status resp <? 600)); [eexists; split; [reflexivity | discriminate]|].
      pose proof (decode_exp_resp0 x resp) as D.
      destruct (expected_body x resp); [|destruct D as [e D]]; rewrite D; eexists; (split; [reflexivity | discriminate]).
    - destruct (run_unrepresentable a x resp H) as [msg E]. rewrite E.
      eexists; split; [reflexivity | discriminate].
  Qed.

  Lemma headers_same_build hs : headers_same_b hs (build hs []) = true.
  Proof. apply Inv_headers_same, Inv_build. Qed.

  Theorem success_faithful a x resp :
    known_status (r_status resp) = true -> all_ascii (r_headers resp) = true -> r_status resp < 400 ->
    match expected_body x resp with
    | Some b => exists o, run a x (ROk resp) = T1 (HOk o) /\ rs_status o = r_status resp /\
                          headers_same_b (r_headers resp) (rs_headers o) = true /\ rs_body o = Some b /\ rs_version o = None
    | None => exists e, run a x (ROk resp) = T1 (HErr e)
    end.
  Proof.
    intros Hk Ha Hs. rewrite (run_representable a x resp Hk Ha).
    assert (E : (400 <=? r_status resp) && (r_status resp <? 600) = false)
      by (apply not_true_iff_false; rewrite range_b; lia).
    rewrite E. pose proof (decode_exp_resp0 x resp) as D.
    destruct (expected_body x resp); [|destruct D as [e D]]; rewrite D; eexists; [|reflexivity].
    repeat split. apply headers_same_build.
  Qed.

  (* [C15_ok] tests the status as [run_representable] does *)
  Theorem model_ok a x r :
    known_unknown_status r = false -> known_non_ascii_header r = false -> C15_ok x r (run a x r) = true.
  Proof.
    intros K1 K2. destruct r as [resp | e]; [|rewrite passthrough; apply http_error_eqb_refl].
    simpl in K1, K2. apply negb_false_iff in K2. unfold Resp.C15_ok.
    destruct (known_status (r_status resp)) eqn:Hk.
    - rewrite (run_representable a x resp Hk K2). pose proof (known_status_range _ Hk) as R.
      destruct ((400 <=? r_status resp) && (r_status resp <? 600)) eqn:E1.
      + simpl. rewrite N.eqb_refl. apply bytes_eqb_refl.
      + apply not_true_iff_false in E1. rewrite range_b in E1.
        pose proof (decode_exp_resp0 x resp) as D.
        destruct (expected_body x resp) as [b|] eqn:EB; [|destruct D as [e D]]; rewrite D; simpl;
          rewrite (proj2 (range_b 100 400 _)) by lia; [|reflexivity].
        unfold faithful_success. simpl. rewrite EB, N.eqb_refl, headers_same_build. apply body_out_eqb_refl.
    - (* a status outside the table is, by K1, outside 100..599, where [C15_ok] accepts any error value *)
      rewrite (run_unknown_status a x resp Hk). simpl.
      rewrite andb_true_r in K1. apply not_true_iff_false in K1. rewrite range_b in K1.
      destruct ((400 <=? _) && _) eqn:E1; [apply range_b in E1; lia|].
      destruct ((100 <=? _) && _) eqn:E2; [apply range_b in E2; lia|reflexivity].
  Qed.
End Main.
