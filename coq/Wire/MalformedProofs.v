(* Lemmas for C12 (Malformed.v): what each outcome of a bridge step says about its input, the least size
   of an encoding, and why a length prefix cannot make the decoder spin. *)
From Coq Require Import String List ZArith NArith Bool Lia.
From Crux Require Import Wire.Codec Wire.CodecProofs Wire.Kv Wire.KvProofs Wire.Malformed.
Import ListNotations.

Section Steps.
  Variable reg : registry.
  Variable ev_fmt : format.
  Variable app : Type.
  Variable on_event : app -> value -> core_res app.
  Variable on_output : app -> N -> value -> core_res app.
  Variable alloc_id : list (N * entry) -> N.

  Notation process_event := (process_event reg ev_fmt app on_event alloc_id).
  Notation handle_response := (handle_response reg app on_output alloc_id).
  Notation finish := (finish app alloc_id).
  Notation step := (step reg ev_fmt app on_event on_output alloc_id).
  Notation run := (run reg ev_fmt app on_event on_output alloc_id).
  Notation bstate := (bstate app).

  Lemma finish_eq a es effs :
    finish a es effs = BOk {| core := a; entries := fst (register alloc_id es effs) |} (snd (register alloc_id es effs)).
  Proof. unfold Malformed.finish. now destruct (register alloc_id es effs). Qed.

  Lemma process_event_spec s b r : process_event s b = r ->
    match r with
    | BPanic => exists v rest, decode reg ev_fmt b = Some (v, rest) /\ has_type reg ev_fmt v /\
                               (on_event (core s) v = CPanic \/ on_event (core s) v = CFinished)
    | BErr e s' => s' = s /\ e = EDeserializeEvent /\ decode reg ev_fmt b = None
    | BOk _ _ => exists v rest, decode reg ev_fmt b = Some (v, rest) /\ has_type reg ev_fmt v /\ b = encode reg ev_fmt v ++ rest
    end.
  Proof.
    intros <-. unfold Malformed.process_event. destruct (decode reg ev_fmt b) as [[v rest]|] eqn:E; [|auto].
    destruct (canonical _ _ _ _ _ E) as [Eb Ht].
    destruct (on_event (core s) v) eqn:O; rewrite ?finish_eq; exists v, rest; auto.
  Qed.

  Lemma accepted_event_decodes s b s' out : process_event s b = BOk s' out ->
    exists v rest, decode reg ev_fmt b = Some (v, rest) /\ has_type reg ev_fmt v /\ b = encode reg ev_fmt v ++ rest.
  Proof. apply process_event_spec. Qed.

  Lemma find_remove_other id id' es : id' <> id ->
    find_entry id' (remove_entry id es) = find_entry id' es.
  Proof.
    intros Hne. induction es as [|[i e] es IH]; cbn [remove_entry find_entry]; [reflexivity|].
    destruct (N.eqb_spec i id) as [->|]; cbn [find_entry]; rewrite IH; [|reflexivity].
    destruct (N.eqb_spec id id'); [congruence|reflexivity].
  Qed.
  Lemma find_remove_same id es : find_entry id (remove_entry id es) = None.
  Proof.
    induction es as [|[i e] es IH]; cbn [remove_entry find_entry]; [reflexivity|].
    destruct (N.eqb i id) eqn:E1; [exact IH|]. cbn [find_entry]. now rewrite E1.
  Qed.

  Lemma handle_response_spec s id b r : handle_response s id b = r ->
    match r with
    | BPanic => exists f v rest,
        (find_entry id (entries s) = Some (ROnce f) \/ find_entry id (entries s) = Some (RMany f)) /\
        decode reg f b = Some (v, rest) /\ has_type reg f v /\
        (on_output (core s) id v = CPanic \/
         (on_output (core s) id v = CFinished /\ find_entry id (entries s) = Some (ROnce f)))
    | BErr e s' =>
        match find_entry id (entries s) with
        | Some (ROnce f) => e = EDeserializeOutput /\ decode reg f b = None /\
                            s' = {| core := core s; entries := remove_entry id (entries s) |}
        | Some RNever => s' = {| core := core s; entries := remove_entry id (entries s) |}
        | _ => s' = s
        end
    | BOk _ _ => True
    end.
  Proof.
    intros <-. unfold Malformed.handle_response. destruct (find_entry id (entries s)) as [[|f|f]|]; [reflexivity| | |reflexivity].
    - destruct (decode reg f b) as [[v rest]|] eqn:E; [|auto]. destruct (canonical _ _ _ _ _ E) as [_ Ht].
      destruct (on_output (core s) id v) eqn:O; rewrite ?finish_eq; [| |exact I]; exists f, v, rest; repeat split; auto.
    - destruct (decode reg f b) as [[v rest]|] eqn:E; [|reflexivity]. destruct (canonical _ _ _ _ _ E) as [_ Ht].
      destruct (on_output (core s) id v) eqn:O; rewrite ?finish_eq; [|reflexivity|exact I]. exists f, v, rest. repeat split; auto.
  Qed.

  (* [run_app] splits a run at any point: how C12_twin deletes an input rejected without a state change *)
  Fixpoint final (s : bstate) (h : list (input)) : option bstate :=
    match h with
    | [] => Some s
    | i :: h' => match state_after app s (step s i) with Some s' => final s' h' | None => None end
    end.

  Lemma run_app s h1 h2 :
    run s (h1 ++ h2) = run s h1 ++ match final s h1 with Some s1 => run s1 h2 | None => [] end.
  Proof.
    revert s; induction h1 as [|i h1 IH]; intros s; cbn [List.app Malformed.run final]; [reflexivity|].
    destruct (state_after app s (step s i)) as [s'|]; [now rewrite IH|reflexivity].
  Qed.
End Steps.

Lemma kv_continuation_done c u id v : kv_continuation c u id v = CDone tt [].
Proof.
  unfold kv_continuation. destruct (result_of_v v) as [r|]; [|reflexivity].
  pose proof (deliver_total Command c r). now destruct (deliver Command c r).
Qed.

Definition sized (c : codec) (m : nat) : Prop := forall v, ctyp c v = true -> (m <= length (cenc c v))%nat.

Lemma sized_weaken c m m' : sized c m -> (m' <= m)%nat -> sized c m'.
Proof. intros H L v Ht. specialize (H v Ht). lia. Qed.

Lemma sized_0 c : sized c 0. Proof. intros v _. lia. Qed.
Lemma bool_sized : sized bool_codec 1.
Proof. intros v Ht. destruct v as [|[]| | | | | |]; try discriminate; cbn; lia. Qed.
Lemma int_sized s w : sized (int_codec s w) (wbytes w).
Proof. intros v Ht. destruct v; try discriminate. cbn [int_codec cenc]. unfold int_enc. now rewrite le_enc_length. Qed.
Lemma char_sized : sized char_codec 1.
Proof.
  intros v Ht. destruct v as [| | |bs| | | |]; try discriminate. cbn [char_codec ctyp cenc] in *.
  apply is_char_first in Ht. destruct bs; [discriminate|cbn; lia].
Qed.
Lemma option_sized c : sized (option_codec c) 1.
Proof. intros v Ht. destruct v; try discriminate; cbn; lia. Qed.

Lemma prefixed_sized c w : (forall v, ctyp c v = true -> exists n r, cenc c v = le_enc w n ++ r) -> sized c w.
Proof. intros H v Ht. destruct (H v Ht) as (n & r & ->). rewrite app_length, le_enc_length. lia. Qed.
Lemma bytes_sized chk : sized (bytes_codec chk) 8.
Proof. apply prefixed_sized. intros v Ht. destruct v; try discriminate. cbn [bytes_codec cenc]. eexists _, _. reflexivity. Qed.
Lemma seq_sized c : sized (seq_codec c) 8.
Proof. apply prefixed_sized. intros v Ht. destruct v; try discriminate. cbn [seq_codec cenc]. eexists _, _. reflexivity. Qed.
Lemma enum_sized R vs : sized (enum_codec R vs) 4.
Proof. apply prefixed_sized. intros v Ht. destruct v; try discriminate. cbn [enum_codec cenc]. eexists _, _. reflexivity. Qed.

Lemma tuple_cons_sized c cs m ms : sized c m -> sized (tuple_codec cs) ms -> sized (tuple_codec (c :: cs)) (m + ms).
Proof.
  intros Hc Hcs v Ht. destruct v as [| | | | | |[|v vs]|]; try discriminate.
  cbn [tuple_codec ctyp cenc tuple_typ tuple_enc] in *. apply andb_prop in Ht as [H1 H2].
  specialize (Hc v H1). specialize (Hcs (VList vs) H2). cbn [tuple_codec cenc] in Hcs. rewrite app_length. lia.
Qed.

Lemma tuple_map_sized {A} (g : A -> codec) (m : A -> nat) l : Forall (fun x => sized (g x) (m x)) l ->
  sized (tuple_codec (map g l)) (fold_right (fun x acc => m x + acc)%nat 0%nat l).
Proof. intros H. induction H; cbn [map fold_right]; [apply sized_0|now apply tuple_cons_sized]. Qed.

Lemma array_sized c m n : sized c m -> sized (array_codec c n) (n * m).
Proof. intros H. unfold array_codec. induction n; cbn [repeat Nat.mul]; [apply sized_0|now apply tuple_cons_sized]. Qed.

Section Sized.
  Variable R : string -> codec.
  Variable M : string -> nat.
  Hypothesis HRM : forall n, sized (R n) (M n).

  Lemma fcodec_sized f : sized (fcodec R f) (fmin M f).
  Proof.
    induction f using format_ind'; cbn [fcodec fmin].
    - apply HRM.
    - apply sized_0.
    - apply bool_sized.
    - apply int_sized.
    - apply int_sized.
    - apply char_sized.
    - (* FStr *) apply bytes_sized.
    - (* FBytes *) apply bytes_sized.
    - apply option_sized.
    - apply seq_sized.
    - (* FMap *) apply seq_sized.
    - (* FTuple *) now apply tuple_map_sized.
    - (* FTupleArray *) now apply array_sized.
  Qed.

  Lemma flist_sized {A} (p : A -> format) l :
    sized (tuple_codec (map (fun x => fcodec R (p x)) l)) (fold_right (fun x acc => fmin M (p x) + acc)%nat 0%nat l).
  Proof. apply (tuple_map_sized (fun x => fcodec R (p x)) (fun x => fmin M (p x))), Forall_forall. intros x _. apply fcodec_sized. Qed.

  Lemma ccodec_sized c : sized (ccodec R c) (cmin M c).
  Proof.
    destruct c; cbn [ccodec cmin].
    - apply sized_0.
    - apply fcodec_sized.
    - apply (flist_sized (fun f => f)).
    - apply (flist_sized snd).
    - apply enum_sized.
  Qed.
End Sized.

Lemma rcodec_sized reg : forall name, sized (rcodec reg name) (rmin reg name).
Proof.
  induction reg as [|[n c] reg IH]; intros name; cbn [rcodec rmin].
  - apply sized_0.
  - destruct (String.eqb name n); [apply ccodec_sized; exact IH|apply IH].
Qed.

Lemma decode_min reg f b v rest : decode reg f b = Some (v, rest) ->
  (length rest + fmin (rmin reg) f <= length b)%nat.
Proof.
  intros H. apply canonical in H as [-> Ht]. rewrite app_length.
  pose proof (fcodec_sized _ _ (rcodec_sized reg) f v Ht) as S. unfold encode. lia.
Qed.

Definition consuming (d : decoder) : Prop := forall b v r, d b = Some (v, r) -> (length r < length b)%nat.

Lemma nonempty_consuming reg f : (0 < fmin (rmin reg) f)%nat -> consuming (cdec (fcodec (rcodec reg) f)).
Proof. intros Hm b v r E. pose proof (decode_min reg f b v r E). lia. Qed.

(* each successful step uses up a byte: a run that succeeds has left a byte per attempt, one that fails
   made at most one attempt more than there were bytes *)
Lemma calls_pos_bound d : consuming d -> forall p s,
  (calls_pos d p s + match iter_pos d p s with Some s' => S (length (snd s')) | None => 0 end <= S (length (snd s)))%nat.
Proof.
  intros Hc.
  assert (Hs : forall s, (match dstep d s with Some s' => S (length (snd s')) | None => 0 end <= length (snd s))%nat).
  { intros s. unfold dstep. destruct (d (snd s)) as [[v r]|] eqn:E; [|lia]. apply Hc in E. cbn [snd]. lia. }
  induction p as [p IH|p IH|]; intros s; cbn [calls_pos iter_pos].
  - pose proof (Hs s). destruct (dstep d s) as [s1|]; [|lia].
    pose proof (IH s1). destruct (iter_pos d p s1) as [s2|]; [pose proof (IH s2); destruct (iter_pos d p s2)|]; lia.
  - pose proof (IH s). destruct (iter_pos d p s) as [s1|]; [pose proof (IH s1); destruct (iter_pos d p s1)|]; lia.
  - pose proof (Hs s). destruct (dstep d s); lia.
Qed.

Lemma calls_pos_le d p : forall s, (calls_pos d p s <= Pos.to_nat p)%nat.
Proof.
  induction p as [p IH|p IH|]; intros s; cbn [calls_pos]; [| |lia].
  - destruct (dstep d s) as [s1|]; [|lia]. pose proof (IH s1). destruct (iter_pos d p s1) as [s2|]; [pose proof (IH s2)|]; lia.
  - pose proof (IH s). destruct (iter_pos d p s) as [s1|]; [pose proof (IH s1)|]; lia.
Qed.

Lemma seq_attempts_bound d n b :
  (consuming d -> seq_attempts d n b <= length b + 1)%nat /\ (seq_attempts d n b <= N.to_nat n)%nat.
Proof.
  destruct n as [|p]; cbn [seq_attempts N.to_nat]; [lia|]. split; [|apply calls_pos_le].
  intros Hc. pose proof (calls_pos_bound d Hc p ([], b)) as B. cbn [snd] in B. lia.
Qed.

(* a further entry can only raise the least size of a name (an unregistered name has size 0), and [fseq_ok]
   is monotone in the sizes *)
Lemma sum_mono {A} (g1 g2 : A -> nat) l : Forall (fun x => g1 x <= g2 x)%nat l ->
  (fold_right (fun x acc => g1 x + acc) 0 l <= fold_right (fun x acc => g2 x + acc) 0 l)%nat.
Proof. intros H. induction H; cbn [fold_right]; [apply le_n|now apply Nat.add_le_mono]. Qed.

Lemma forallb_impl {A} (g1 g2 : A -> bool) l :
  (forall x, In x l -> g1 x = true -> g2 x = true) -> forallb g1 l = true -> forallb g2 l = true.
Proof. intros H H1. apply forallb_forall. intros x Hx. exact (H x Hx (proj1 (forallb_forall _ _) H1 x Hx)). Qed.

Lemma ltb0_mono a b : (a <= b)%nat -> Nat.ltb 0 a = true -> Nat.ltb 0 b = true.
Proof. intros H L. apply Nat.ltb_lt in L. apply Nat.ltb_lt. exact (Nat.lt_le_trans _ _ _ L H). Qed.

Section Mono.
  Variables M1 M2 : string -> nat.
  Hypothesis HM : forall n, (M1 n <= M2 n)%nat.

  Lemma fmin_mono f : (fmin M1 f <= fmin M2 f)%nat.
  Proof.
    induction f using format_ind'; cbn [fmin]; auto.
    - (* FTuple *) now apply sum_mono.
    - (* FTupleArray *) now apply Nat.mul_le_mono_l.
  Qed.

  Lemma fseq_ok_mono f : fseq_ok M1 f = true -> fseq_ok M2 f = true.
  Proof.
    induction f using format_ind'; cbn [fseq_ok]; auto.
    - (* FSeq *) intros H0. apply andb_prop in H0 as [L S]. now rewrite (ltb0_mono _ _ (fmin_mono f) L), IHf.
    - (* FMap *) intros H0. apply andb_prop in H0 as [H0 S2]. apply andb_prop in H0 as [L S1].
      now rewrite (ltb0_mono _ _ (Nat.add_le_mono _ _ _ _ (fmin_mono f1) (fmin_mono f2)) L), IHf1, IHf2.
    - (* FTuple *) apply forallb_impl. exact (proj1 (Forall_forall _ _) H).
  Qed.

  Lemma fseq_list_mono {A} (p : A -> format) l :
    forallb (fun x => fseq_ok M1 (p x)) l = true -> forallb (fun x => fseq_ok M2 (p x)) l = true.
  Proof. apply forallb_impl. intros x _. apply fseq_ok_mono. Qed.

  Lemma vseq_ok_mono v : vseq_ok M1 v = true -> vseq_ok M2 v = true.
  Proof.
    destruct v; cbn [vseq_ok].
    - reflexivity.
    - apply fseq_ok_mono.
    - apply (fseq_list_mono (fun f => f)).
    - apply (fseq_list_mono snd).
  Qed.

  Lemma cseq_ok_mono c : cseq_ok M1 c = true -> cseq_ok M2 c = true.
  Proof.
    destruct c; cbn [cseq_ok].
    - reflexivity.
    - apply fseq_ok_mono.
    - apply (fseq_list_mono (fun f => f)).
    - apply (fseq_list_mono snd).
    - apply forallb_impl. intros e _. apply vseq_ok_mono.
  Qed.
End Mono.

Lemma rmin_fresh reg x : ~ In x (names reg) -> rmin reg x = 0%nat.
Proof.
  induction reg as [|[n c] reg IH]; cbn [rmin names map fst In]; [reflexivity|]. intros H.
  destruct (String.eqb_spec x n) as [->|_]; [tauto|apply IH; tauto].
Qed.

Lemma rmin_cons_le m c0 reg : ~ In m (names reg) -> forall x, (rmin reg x <= rmin ((m, c0) :: reg) x)%nat.
Proof. intros Hm x. cbn [rmin]. destruct (String.eqb_spec x m) as [->|_]; [rewrite rmin_fresh by exact Hm; apply Nat.le_0_l|apply le_n]. Qed.
