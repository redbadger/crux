(* The crux_kv model (Kv.v): delivery is the specified one; the images of operations and results in the wire
   schema are values of the regenerated registries; hence the exchange over the bridge is the typed one. *)
From Coq Require Import String List ZArith NArith Bool.
From Crux Require Import Wire.Codec Wire.CodecProofs Wire.CasesProofs Wire.Kv Wire.KvCases.
From Crux Require Import Gen.Registry_protocol Gen.Registry_kvapp.
Import ListNotations.

Lemma emit_one a c : emit a c = [op_of_call c].
Proof. destruct a, c; reflexivity. Qed.

Lemma call_of_op_of_call c : call_of_op (op_of_call c) = c.
Proof. destruct c; reflexivity. Qed.
Lemma op_of_call_of_op o : op_of_call (call_of_op o) = o.
Proof. destruct o; reflexivity. Qed.

Lemma value_option_value v : value_of_option (option_of_value v) = v.
Proof. destruct v; reflexivity. Qed.
Lemma option_value_option o : option_of_value (value_of_option o) = o.
Proof. destruct o; reflexivity. Qed.
Lemma absent_not_empty : option_of_value KNone <> option_of_value (KBytes []).
Proof. discriminate. Qed.

Lemma kind_eqb_spec a b : reflect (a = b) (kind_eqb a b).
Proof. destruct a, b; constructor; try reflexivity; discriminate. Qed.

(* what follows about [deliver] is read off [expected] *)
Lemma deliver_expected a c r : deliver a c r = expected c r.
Proof. destruct c, r as [[]|]; reflexivity. Qed.

Lemma deliver_mismatch a c r : response_kind r <> call_kind c ->
  deliver a c (KOk r) = Failed (mismatch_error (call_kind c)).
Proof. intros H. rewrite deliver_expected. cbn [expected]. now destruct (kind_eqb_spec (response_kind r) (call_kind c)). Qed.

Lemma deliver_total a c r : deliver a c r <> Panicked.
Proof. rewrite deliver_expected. destruct r as [x|e]; cbn [expected]; [destruct (kind_eqb _ _)|]; discriminate. Qed.

Lemma response_payload r : response_of_payload (response_kind r) (payload_of_response r) = Some r.
Proof. destruct r; cbn; now rewrite ?value_option_value. Qed.
Lemma payload_response k p r : response_of_payload k p = Some r -> response_kind r = k /\ payload_of_response r = p.
Proof. destruct k, p; intros H; try discriminate; injection H as <-; cbn; now rewrite ?option_value_option. Qed.

Lemma op_of_v_op o : op_of_v (v_op o) = Some o.
Proof. destruct o; cbn; try reflexivity. now rewrite N2Z.id. Qed.
Lemma value_of_v_value v : value_of_v (v_value v) = Some v.
Proof. destruct v; reflexivity. Qed.
Lemma error_of_v_error e : error_of_v (v_error e) = Some e.
Proof. destruct e; reflexivity. Qed.
Lemma keys_of_vs_map ks : keys_of_vs (map VBytes ks) = Some ks.
Proof. induction ks as [|k ks IH]; cbn; [reflexivity|now rewrite IH]. Qed.
Lemma response_of_v_response r : response_of_v (v_response r) = Some r.
Proof.
  destruct r; cbn; rewrite ?value_of_v_value; try reflexivity.
  rewrite keys_of_vs_map, N2Z.id. reflexivity.
Qed.
Lemma result_of_v_result r : result_of_v (v_result r) = Some r.
Proof. destruct r; cbn; [rewrite response_of_v_response|rewrite error_of_v_error]; reflexivity. Qed.

Lemma v_op_inj o1 o2 : v_op o1 = v_op o2 -> o1 = o2.
Proof. intros H. pose proof (op_of_v_op o1) as E. rewrite H, op_of_v_op in E. congruence. Qed.
Lemma v_result_inj r1 r2 : v_result r1 = v_result r2 -> r1 = r2.
Proof. intros H. pose proof (result_of_v_result r1) as E. rewrite H, result_of_v_result in E. congruence. Qed.

Lemma u64_int_ok c : int_ok false W8 (Z.of_N c) = u64_ok c.
Proof. unfold int_ok, u64_ok, Z.ltb, N.ltb. change (wmod W8) with (Z.of_N U64MAX1). rewrite N2Z.inj_compare. now destruct c. Qed.

Lemma forallb_keys ks : forallb (ctyp (bytes_codec utf8_valid)) (map VBytes ks) = forallb str_ok ks.
Proof. induction ks as [|k ks IH]; cbn [forallb map]; [reflexivity|now rewrite IH]. Qed.

(* reduces the typing of a protocol value's image in a concrete registry to the side conditions on its
   strings, blobs and integers *)
Ltac kv_reduce reg :=
  unfold has_type, has_type_b, F_op, F_result; cbn [fcodec];
  lazy [rcodec reg String.eqb Ascii.eqb Bool.eqb ccodec enum_codec ctyp find_variant N.eqb Pos.eqb
        vcodec fields_codec map snd fcodec tuple_codec tuple_typ bytes_codec int_codec seq_codec
        bool_codec unit_codec FU64 v_op v_value v_error v_response v_result];
  cbn [andb N.ltb N.compare Pos.compare Pos.compare_cont U32MAX1]; rewrite ?andb_true_r.

Lemma op_typed_protocol o : op_ok o = true -> has_type Registry_protocol F_op (v_op o).
Proof. destruct o; cbn [op_ok]; intros H; kv_reduce Registry_protocol; rewrite ?u64_int_ok; exact H. Qed.

Lemma result_typed_protocol r : result_ok r = true -> has_type Registry_protocol F_result (v_result r).
Proof.
  destruct r as [[[|b]|[|b]|[|b]|b|keys c]|[m| | |m]]; cbn [result_ok response_ok error_ok value_ok]; intros H;
    kv_reduce Registry_protocol; try exact H.
  fold (map VBytes keys). pose proof (forallb_keys keys) as E. cbn [bytes_codec ctyp] in E.
  now rewrite map_length, E, u64_int_ok.
Qed.

(* [exact H] has the kernel check that the test app's registry reads crux_kv's types as the protocol registry
   does: per constructor the two typing statements reduce to the same side conditions.  When a regenerated
   schema changes so that they no longer do, this [exact] fails, showing the two statements unreduced. *)
Lemma op_typed_kvapp o : op_ok o = true -> has_type Registry_kvapp F_op (v_op o).
Proof. intros H. apply op_typed_protocol in H. destruct o; exact H. Qed.

Lemma result_typed_kvapp r : result_ok r = true -> has_type Registry_kvapp F_result (v_result r).
Proof. intros H. apply result_typed_protocol in H. destruct r as [[[]|[]|[]| |]|[]]; exact H. Qed.

Section Bridge.
  Variable reg : registry.
  Hypothesis op_typed : forall o, op_ok o = true -> has_type reg F_op (v_op o).
  Hypothesis result_typed : forall r, result_ok r = true -> has_type reg F_result (v_result r).

  Lemma bridge_op o : op_ok o = true -> shell_reads reg (bridge_out reg o) = Some o.
  Proof. intros H. unfold shell_reads, bridge_out. rewrite (roundtrip_nil _ _ _ (op_typed o H)). apply op_of_v_op. Qed.

  Lemma bridge_result r trailing : result_ok r = true -> bridge_in reg (shell_writes reg r ++ trailing) = Some r.
  Proof.
    intros H. unfold bridge_in, shell_writes.
    rewrite (roundtrip reg F_result (v_result r) trailing (result_typed r H)). apply result_of_v_result.
  Qed.

  Lemma bridge_out_inj o1 o2 : op_ok o1 = true -> op_ok o2 = true -> bridge_out reg o1 = bridge_out reg o2 -> o1 = o2.
  Proof. intros H1 H2 E. apply v_op_inj. eapply encode_injective; eauto. Qed.
  Lemma shell_writes_inj r1 r2 : result_ok r1 = true -> result_ok r2 = true -> shell_writes reg r1 = shell_writes reg r2 -> r1 = r2.
  Proof. intros H1 H2 E. apply v_result_inj. eapply encode_injective; eauto. Qed.

  Lemma exchange_bridge_typed a c r : op_ok (op_of_call c) = true -> result_ok r = true ->
    exchange_bridge reg a c r =
    (map Some (fst (exchange_typed a c r)), Some (snd (exchange_typed a c r))).
  Proof.
    intros Ho Hr. unfold exchange_bridge, exchange_typed. cbn [fst snd].
    rewrite emit_one. cbn [map]. rewrite bridge_op by exact Ho.
    pose proof (bridge_result r [] Hr) as B. rewrite app_nil_r in B. now rewrite B.
  Qed.
End Bridge.

Lemma keys_eqb_refl k : keys_eqb k k = true.
Proof. induction k as [|x k IH]; cbn [keys_eqb]; [reflexivity|]. now rewrite bytes_eqb_refl, IH. Qed.
Lemma op_eqb_refl o : op_eqb o o = true.
Proof. destruct o; cbn [op_eqb]; rewrite ?bytes_eqb_refl, ?N.eqb_refl; reflexivity. Qed.
Lemma error_eqb_refl e : error_eqb e e = true.
Proof. destruct e; cbn [error_eqb]; rewrite ?bytes_eqb_refl; reflexivity. Qed.
Lemma payload_eqb_refl p : payload_eqb p p = true.
Proof.
  destruct p as [[d|]|b|k c]; cbn [payload_eqb]; rewrite ?bytes_eqb_refl, ?keys_eqb_refl, ?N.eqb_refl; try reflexivity.
  now destruct b.
Qed.

Definition seen_of (o : outcome) : seen :=
  match o with Delivered p => SDelivered p | Failed e => SFailed e | Panicked => SPanicked end.
Lemma seen_eqb_refl o : seen_eqb o (seen_of o) = true.
Proof. destruct o; cbn [seen_eqb seen_of]; [apply payload_eqb_refl|apply error_eqb_refl|reflexivity]. Qed.
