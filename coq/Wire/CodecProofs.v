(* Lemmas about the wire codec: every codec built from the combinators of Codec.v round-trips and is
   canonical; hence so is the codec of every format in every registry. *)
From Coq Require Import String List ZArith NArith Bool Lia.
From Coq Require Strings.Byte.
From Crux Require Import Wire.Codec.
Import ListNotations.
Local Open Scope N_scope.

(* round trip and canonicity *)
Definition good (c : codec) : Prop :=
  (forall v rest, ctyp c v = true -> cdec c (cenc c v ++ rest) = Some (v, rest)) /\
  (forall b v rest, cdec c b = Some (v, rest) -> b = cenc c v ++ rest /\ ctyp c v = true).

Lemma N_of_byte_lt x : N_of_byte x < 256.
Proof. unfold N_of_byte. pose proof (Coq.Strings.Byte.to_N_bounded x). lia. Qed.

Lemma N_of_byte_of_N n : N_of_byte (byte_of_N n) = n mod 256.
Proof.
  unfold N_of_byte, byte_of_N.
  destruct (Coq.Strings.Byte.of_N (n mod 256)) as [b|] eqn:E.
  - apply Coq.Strings.Byte.to_of_N in E. exact E.
  - apply Coq.Strings.Byte.of_N_None_iff in E.
    pose proof (N.mod_upper_bound n 256). lia.
Qed.

Lemma byte_of_N_of_byte x : byte_of_N (N_of_byte x) = x.
Proof.
  unfold byte_of_N. rewrite N.mod_small by apply N_of_byte_lt.
  unfold N_of_byte. rewrite Coq.Strings.Byte.of_to_N. reflexivity.
Qed.

Lemma byte_of_N_add x n : byte_of_N (N_of_byte x + 256 * n) = x.
Proof. unfold byte_of_N. rewrite (N.mul_comm 256 n), N.mod_add by lia. apply byte_of_N_of_byte. Qed.

Lemma byte_of_N_eq x n : N_of_byte x = n -> x = byte_of_N n.
Proof. intros <-. symmetry. apply byte_of_N_of_byte. Qed.

Lemma le_enc_length w n : length (le_enc w n) = w.
Proof. revert n; induction w as [|w IH]; intros n; cbn [le_enc length]; [reflexivity|now rewrite IH]. Qed.

Lemma le_rt w : forall n rest, n < 256 ^ N.of_nat w -> le_dec w (le_enc w n ++ rest) = Some (n, rest).
Proof.
  induction w as [|w IH]; intros n rest Hn.
  - cbn [le_enc le_dec app]. change (256 ^ N.of_nat 0) with 1 in Hn. f_equal. f_equal. lia.
  - cbn [le_enc le_dec app].
    rewrite Nat2N.inj_succ, N.pow_succ_r' in Hn.
    rewrite IH by (apply N.div_lt_upper_bound; lia).
    rewrite N_of_byte_of_N. f_equal. f_equal.
    pose proof (N.div_mod' n 256). lia.
Qed.

Lemma le_canon w : forall b n r, le_dec w b = Some (n, r) -> b = le_enc w n ++ r /\ n < 256 ^ N.of_nat w.
Proof.
  induction w as [|w IH]; intros b n r H.
  - cbn [le_dec] in H. injection H as <- <-. split; [reflexivity|]. change (256 ^ N.of_nat 0) with 1. lia.
  - cbn [le_dec] in H. destruct b as [|x b']; [discriminate|].
    destruct (le_dec w b') as [[n' r']|] eqn:E; [|discriminate].
    assert (n = N_of_byte x + 256 * n' /\ r = r') as [-> ->] by (split; congruence).
    apply IH in E as [-> Hn']. pose proof (N_of_byte_lt x) as Hx. cbn [le_enc app]. rewrite byte_of_N_add.
    replace ((N_of_byte x + 256 * n') / 256) with n' by (rewrite N.add_comm, N.mul_comm, N.div_add_l, N.div_small; lia).
    split; [reflexivity|]. rewrite Nat2N.inj_succ, N.pow_succ_r'. lia.
Qed.

Lemma le_dec_short w : forall b, (length b < w)%nat -> le_dec w b = None.
Proof.
  induction w as [|w IH]; intros b Hb; [lia|].
  cbn [le_dec]. destruct b as [|x b']; [reflexivity|]. cbn [length] in Hb.
  rewrite IH by lia. reflexivity.
Qed.

Lemma wmod_pow w : Z.of_N (256 ^ N.of_nat (wbytes w)) = wmod w.
Proof. destruct w; reflexivity. Qed.
Lemma whalf_wmod w : (wmod w = 2 * whalf w)%Z.
Proof. destruct w; reflexivity. Qed.
Lemma whalf_pos w : (0 < whalf w)%Z.
Proof. destruct w; reflexivity. Qed.

(* two's complement on Z, [h] being half the modulus; unsigned when [s] is false *)
Definition in_int (s : bool) (h z : Z) : Prop := if s then (- h <= z < h)%Z else (0 <= z < 2 * h)%Z.
Definition of_bits (s : bool) (h u : Z) : Z := if s && (h <=? u)%Z then (u - 2 * h)%Z else u.

Lemma of_bits_wrap s h z : in_int s h z -> of_bits s h (z mod (2 * h)) = z.
Proof.
  unfold in_int, of_bits. intros H. destruct s; cbn [andb]; [|apply Z.mod_small, H].
  destruct (Z_lt_le_dec z 0) as [Hneg|Hpos].
  - rewrite <- (Z_mod_plus_full z 1), Z.mod_small by lia. destruct (Z.leb_spec h (z + 1 * (2 * h))); lia.
  - rewrite Z.mod_small by lia. destruct (Z.leb_spec h z); lia.
Qed.

Lemma of_bits_unwrap s h u : (0 <= u < 2 * h)%Z -> (of_bits s h u mod (2 * h) = u)%Z /\ in_int s h (of_bits s h u).
Proof.
  unfold in_int, of_bits. intros H. destruct s; cbn [andb]; [|split; [apply Z.mod_small, H|exact H]].
  destruct (Z.leb_spec h u).
  - replace (u - 2 * h)%Z with (u + (-1) * (2 * h))%Z by lia. rewrite Z_mod_plus_full, Z.mod_small; lia.
  - rewrite Z.mod_small; lia.
Qed.

Lemma int_ok_spec s w z : int_ok s w z = true <-> in_int s (whalf w) z.
Proof.
  unfold int_ok, in_int. rewrite whalf_wmod. destruct s; rewrite andb_true_iff, Z.leb_le, Z.ltb_lt; reflexivity.
Qed.

Lemma int_good s w : good (int_codec s w).
Proof.
  pose proof (wmod_pow w) as HP. pose proof (whalf_pos w) as HH.
  split.
  - intros v rest Ht. destruct v as [| |z| | | | |]; try discriminate. cbn [int_codec ctyp cenc cdec] in *.
    apply int_ok_spec in Ht. unfold int_dec, int_enc. rewrite whalf_wmod in *.
    assert (Hr : (0 <= z mod (2 * whalf w) < 2 * whalf w)%Z) by (apply Z.mod_pos_bound; lia).
    rewrite le_rt by (apply N2Z.inj_lt; rewrite HP, Z2N.id; lia).
    rewrite Z2N.id by lia. fold (of_bits s (whalf w) (z mod (2 * whalf w))). now rewrite of_bits_wrap.
  - intros b v rest Hd. cbn [int_codec ctyp cenc cdec] in *. unfold int_dec in Hd.
    destruct (le_dec (wbytes w) b) as [[n r]|] eqn:E; [|discriminate]. injection Hd as <- <-.
    apply le_canon in E as [-> Hn]. apply N2Z.inj_lt in Hn. rewrite HP in Hn. pose proof (N2Z.is_nonneg n).
    rewrite whalf_wmod in *. fold (of_bits s (whalf w) (Z.of_N n)).
    destruct (of_bits_unwrap s (whalf w) (Z.of_N n)) as [Em Hi]; [lia|].
    unfold int_enc. rewrite whalf_wmod, Em, N2Z.id. split; [reflexivity|now apply int_ok_spec].
Qed.

Lemma unit_good : good unit_codec.
Proof.
  split.
  - intros v rest Ht. destruct v; try discriminate. reflexivity.
  - intros b v rest Hd. cbn in Hd. inversion Hd; subst. split; reflexivity.
Qed.

Lemma N_of_byte_1 : N_of_byte (byte_of_N 1) = 1. Proof. reflexivity. Qed.
Lemma N_of_byte_0 : N_of_byte (byte_of_N 0) = 0. Proof. reflexivity. Qed.

(* the one-byte tag of bool and Option *)
Lemma tag_cases {T} x (a b : option T) r :
  (if N_of_byte x =? 0 then a else if N_of_byte x =? 1 then b else None) = Some r ->
  (x = byte_of_N 0 /\ a = Some r) \/ (x = byte_of_N 1 /\ b = Some r).
Proof.
  destruct (N.eqb_spec (N_of_byte x) 0) as [E|_]; [|destruct (N.eqb_spec (N_of_byte x) 1) as [E|_]; [|discriminate]];
    apply byte_of_N_eq in E; auto.
Qed.

Lemma bool_good : good bool_codec.
Proof.
  split.
  - intros v rest Ht. destruct v as [|[]| | | | | |]; try discriminate; reflexivity.
  - intros b v rest Hd. cbn [bool_codec cdec] in Hd. destruct b as [|x r]; [discriminate|].
    apply tag_cases in Hd as [[-> Hd]|[-> Hd]]; injection Hd as <- <-; split; reflexivity.
Qed.

Lemma utf8_first_spec b c r : utf8_first b = Some (c, r) ->
  b = c ++ r /\ forall rest, utf8_first (c ++ rest) = Some (c, rest).
Proof.
  unfold utf8_first. destruct b as [|x0 b]; [discriminate|].
  destruct (N_of_byte x0 <? 128) eqn:C1.
  { intros H; injection H as <- <-. split; [reflexivity|]. intros rest. cbn [app]. now rewrite C1. }
  destruct (N_of_byte x0 <? 194) eqn:C2; [discriminate|].
  destruct (N_of_byte x0 <? 224) eqn:C3.
  { destruct b as [|x1 b]; [discriminate|]. destruct (cont x1) eqn:K; [|discriminate].
    intros H; injection H as <- <-. split; [reflexivity|]. intros rest. cbn [app]. now rewrite C1, C2, C3, K. }
  destruct (N_of_byte x0 <? 240) eqn:C4.
  { destruct b as [|x1 [|x2 b]]; try discriminate. destruct (in_range _ _ x1 && cont x2) eqn:K; [|discriminate].
    intros H; injection H as <- <-. split; [reflexivity|]. intros rest. cbn [app]. now rewrite C1, C2, C3, C4, K. }
  destruct (N_of_byte x0 <? 245) eqn:C5; [|discriminate].
  destruct b as [|x1 [|x2 [|x3 b]]]; try discriminate. destruct (in_range _ _ x1 && cont x2 && cont x3) eqn:K; [|discriminate].
  intros H; injection H as <- <-. split; [reflexivity|]. intros rest. cbn [app]. now rewrite C1, C2, C3, C4, C5, K.
Qed.

Lemma is_char_first bs : is_char bs = true -> utf8_first bs = Some (bs, []).
Proof.
  unfold is_char. destruct (utf8_first bs) as [[c [|]]|] eqn:E; try discriminate.
  intros _. apply utf8_first_spec in E as [-> _]. now rewrite app_nil_r.
Qed.

Lemma char_good : good char_codec.
Proof.
  split.
  - intros v rest Ht. cbn [char_codec ctyp cenc cdec] in *. destruct v; try discriminate.
    apply is_char_first, utf8_first_spec in Ht as [_ Ht]. now rewrite Ht.
  - intros b v rest Hd. cbn [char_codec ctyp cenc cdec] in *.
    destruct (utf8_first b) as [[c r]|] eqn:E; [|discriminate]. injection Hd as <- <-.
    apply utf8_first_spec in E as [-> E]. split; [reflexivity|]. unfold is_char.
    specialize (E []). rewrite app_nil_r in E. now rewrite E.
Qed.

Lemma u64_rt n rest : n < U64MAX1 -> u64_dec (u64_enc n ++ rest) = Some (n, rest).
Proof. apply (le_rt 8). Qed.
Lemma u64_canon b n r : u64_dec b = Some (n, r) -> b = u64_enc n ++ r /\ n < U64MAX1.
Proof. apply (le_canon 8). Qed.
Lemma u32_rt n rest : n < U32MAX1 -> u32_dec (u32_enc n ++ rest) = Some (n, rest).
Proof. apply (le_rt 4). Qed.
Lemma u32_canon b n r : u32_dec b = Some (n, r) -> b = u32_enc n ++ r /\ n < U32MAX1.
Proof. apply (le_canon 4). Qed.

Lemma take_bytes_rt bs rest : len_ok (length bs) = true ->
  take_bytes (u64_enc (N.of_nat (length bs)) ++ bs ++ rest) = Some (bs, rest).
Proof.
  intros Hl. apply N.ltb_lt in Hl. unfold take_bytes. rewrite u64_rt by exact Hl.
  rewrite app_length, Nat2N.inj_add, (proj2 (N.leb_le _ _)) by lia.
  rewrite Nat2N.id, firstn_app, skipn_app, Nat.sub_diag, firstn_all, skipn_all. cbn [firstn skipn app]. now rewrite app_nil_r.
Qed.

Lemma take_bytes_canon b bs r : take_bytes b = Some (bs, r) ->
  b = u64_enc (N.of_nat (length bs)) ++ bs ++ r /\ len_ok (length bs) = true.
Proof.
  unfold take_bytes. destruct (u64_dec b) as [[n r0]|] eqn:E; [|discriminate]. apply u64_canon in E as [-> Hn].
  destruct (N.leb_spec n (N.of_nat (length r0))) as [C|]; [|discriminate].
  intros H; injection H as <- <-.
  unfold len_ok. rewrite firstn_length_le, N2Nat.id, firstn_skipn by lia. split; [reflexivity|now apply N.ltb_lt].
Qed.

Lemma bytes_good chk : good (bytes_codec chk).
Proof.
  split.
  - intros v rest Ht. cbn [bytes_codec ctyp cenc cdec] in *. destruct v; try discriminate.
    apply andb_prop in Ht as [Hl Hc]. rewrite <- app_assoc, take_bytes_rt by exact Hl.
    now rewrite Hc.
  - intros b v rest Hd. cbn [bytes_codec ctyp cenc cdec] in *.
    destruct (take_bytes b) as [[bs r]|] eqn:E; [|discriminate].
    destruct (chk bs) eqn:Hc; [|discriminate]. inversion Hd; subst.
    apply take_bytes_canon in E as [Eb Hl]. rewrite <- app_assoc. split; [exact Eb|].
    now rewrite Hl, Hc.
Qed.

Lemma option_good c : good c -> good (option_codec c).
Proof.
  intros [Hrt Hcan]. split.
  - intros v rest Ht. cbn [option_codec ctyp cenc cdec] in *.
    destruct v; try discriminate; [reflexivity|].
    cbn [app]. rewrite N_of_byte_1. cbn [N.eqb Pos.eqb]. now rewrite Hrt.
  - intros b v rest Hd. cbn [option_codec cdec] in Hd. destruct b as [|x r]; [discriminate|].
    apply tag_cases in Hd as [[-> Hd]|[-> Hd]].
    + injection Hd as <- <-. split; reflexivity.
    + destruct (cdec c r) as [[v' r']|] eqn:E; [|discriminate]. injection Hd as <- <-.
      apply Hcan in E as [-> Ht]. split; [reflexivity|exact Ht].
Qed.

Fixpoint iter_nat (d : decoder) (n : nat) (s : dstate) : option dstate :=
  match n with
  | O => Some s
  | S k => match dstep d s with None => None | Some s' => iter_nat d k s' end
  end.

Lemma iter_nat_add d a : forall b s,
  iter_nat d (a + b) s = match iter_nat d a s with None => None | Some s' => iter_nat d b s' end.
Proof.
  induction a as [|a IH]; intros b s; cbn [iter_nat Nat.add]; [reflexivity|].
  destruct (dstep d s); [apply IH|reflexivity].
Qed.

Lemma to_nat_xO p : Pos.to_nat p~0 = (Pos.to_nat p + Pos.to_nat p)%nat.
Proof. lia. Qed.
Lemma to_nat_xI p : Pos.to_nat p~1 = S (Pos.to_nat p + Pos.to_nat p).
Proof. lia. Qed.

Lemma iter_pos_nat d p : forall s, iter_pos d p s = iter_nat d (Pos.to_nat p) s.
Proof.
  induction p as [p IH|p IH|]; intros s; cbn [iter_pos].
  - rewrite to_nat_xI. cbn [iter_nat]. destruct (dstep d s) as [s1|]; [|reflexivity].
    rewrite iter_nat_add, IH. destruct (iter_nat d (Pos.to_nat p) s1); [apply IH|reflexivity].
  - rewrite to_nat_xO, iter_nat_add, IH. destruct (iter_nat d (Pos.to_nat p) s); [apply IH|reflexivity].
  - change (Pos.to_nat 1) with 1%nat. cbn [iter_nat]. destruct (dstep d s); reflexivity.
Qed.

Lemma tuple_rt cs : Forall good cs -> forall vs rest, tuple_typ cs vs = true ->
  tuple_dec cs (tuple_enc cs vs ++ rest) = Some (vs, rest).
Proof.
  induction 1 as [|c cs [Hrt _] _ IH]; intros [|v vs] rest Ht; try discriminate; [reflexivity|].
  cbn [tuple_typ] in Ht. apply andb_prop in Ht as [H1 H2]. cbn [tuple_enc tuple_dec].
  now rewrite <- app_assoc, Hrt, IH.
Qed.

Lemma tuple_canon cs : Forall good cs -> forall b vs r, tuple_dec cs b = Some (vs, r) ->
  b = tuple_enc cs vs ++ r /\ tuple_typ cs vs = true.
Proof.
  induction 1 as [|c cs [_ Hcan] _ IH]; intros b vs r E; cbn [tuple_dec] in E.
  - injection E as <- <-. split; reflexivity.
  - destruct (cdec c b) as [[v r1]|] eqn:E1; [|discriminate].
    destruct (tuple_dec cs r1) as [[vs' r']|] eqn:E2; [|discriminate]. injection E as <- <-.
    apply Hcan in E1 as [-> Ht]. apply IH in E2 as [-> Hts].
    cbn [tuple_enc tuple_typ]. now rewrite <- app_assoc, Ht, Hts.
Qed.

Lemma tuple_good cs : Forall good cs -> good (tuple_codec cs).
Proof.
  intros HF. split.
  - intros v rest Ht. destruct v as [| | | | | |vs|]; try discriminate. cbn [tuple_codec ctyp cenc cdec] in *.
    now rewrite (tuple_rt cs HF vs rest Ht).
  - intros b v rest Hd. cbn [tuple_codec cdec] in Hd.
    destruct (tuple_dec cs b) as [[vs r]|] eqn:E; [|discriminate]. injection Hd as <- <-.
    exact (tuple_canon cs HF _ _ _ E).
Qed.

Lemma repeat_Forall {A} (P : A -> Prop) x n : P x -> Forall P (repeat x n).
Proof. intros H. induction n; cbn; constructor; auto. Qed.

(* sequences: n elements are a tuple of n equal codecs *)
Lemma iter_nat_tuple c n : forall acc b,
  iter_nat (cdec c) n (acc, b) =
  match tuple_dec (repeat c n) b with None => None | Some (vs, r) => Some (rev vs ++ acc, r) end.
Proof.
  induction n as [|n IH]; intros acc b; cbn [iter_nat repeat tuple_dec]; [reflexivity|].
  unfold dstep. cbn [fst snd]. destruct (cdec c b) as [[v r]|]; [|reflexivity].
  rewrite IH. destruct (tuple_dec (repeat c n) r) as [[vs r']|]; [|reflexivity].
  cbn [rev]. now rewrite <- app_assoc.
Qed.

Lemma dec_count_tuple c n b : dec_count (cdec c) n b = tuple_dec (repeat c (N.to_nat n)) b.
Proof.
  destruct n as [|p]; [reflexivity|]. unfold dec_count. rewrite iter_pos_nat, iter_nat_tuple.
  cbn [N.to_nat]. destruct (tuple_dec (repeat c (Pos.to_nat p)) b) as [[vs r]|]; [|reflexivity].
  now rewrite app_nil_r, rev_involutive.
Qed.

Lemma repeat_typ c vs : tuple_typ (repeat c (length vs)) vs = forallb (ctyp c) vs.
Proof. induction vs as [|v vs IH]; cbn [length repeat tuple_typ forallb]; [reflexivity|now rewrite IH]. Qed.
Lemma repeat_enc c vs : tuple_enc (repeat c (length vs)) vs = flat_map (cenc c) vs.
Proof. induction vs as [|v vs IH]; cbn [length repeat tuple_enc flat_map]; [reflexivity|now rewrite IH]. Qed.
Lemma tuple_typ_length cs : forall vs, tuple_typ cs vs = true -> length vs = length cs.
Proof.
  induction cs as [|c cs IH]; intros [|v vs] H; try discriminate; [reflexivity|].
  cbn [tuple_typ] in H. apply andb_prop in H as [_ H]. cbn [length]. now rewrite (IH vs H).
Qed.

Lemma seq_good c : good c -> good (seq_codec c).
Proof.
  intros H. split.
  - intros v rest Ht. cbn [seq_codec ctyp cenc cdec] in *. destruct v; try discriminate.
    apply andb_prop in Ht as [Hl Hts]. apply N.ltb_lt in Hl. rewrite <- app_assoc, u64_rt by exact Hl.
    rewrite dec_count_tuple, Nat2N.id, <- repeat_enc, tuple_rt; [reflexivity|now apply repeat_Forall|now rewrite repeat_typ].
  - intros b v rest Hd. cbn [seq_codec cdec] in Hd.
    destruct (u64_dec b) as [[n r0]|] eqn:E; [|discriminate]. rewrite dec_count_tuple in Hd.
    destruct (tuple_dec (repeat c (N.to_nat n)) r0) as [[vs r']|] eqn:E2; [|discriminate].
    injection Hd as <- <-. apply u64_canon in E as [-> Hn].
    apply tuple_canon in E2 as [-> Ht]; [|now apply repeat_Forall].
    pose proof (tuple_typ_length _ _ Ht) as Hl. rewrite repeat_length in Hl. rewrite <- Hl, repeat_typ, repeat_enc in *.
    cbn [seq_codec cenc ctyp]. unfold len_ok. rewrite Hl, N2Nat.id, Ht, <- app_assoc.
    split; [reflexivity|]. now rewrite (proj2 (N.ltb_lt _ _) Hn).
Qed.

Section FormatInd.
  Variable P : format -> Prop.
  Hypothesis Hname : forall n, P (FTypeName n).
  Hypothesis Hunit : P FUnit.
  Hypothesis Hbool : P FBool.
  Hypothesis Hint : forall s w, P (FInt s w).
  Hypothesis Hfloat : forall w, P (FFloat w).
  Hypothesis Hchar : P FChar.
  Hypothesis Hstr : P FStr.
  Hypothesis Hbytes : P FBytes.
  Hypothesis Hopt : forall f, P f -> P (FOption f).
  Hypothesis Hseq : forall f, P f -> P (FSeq f).
  Hypothesis Hmap : forall k v, P k -> P v -> P (FMap k v).
  Hypothesis Htuple : forall fs, Forall P fs -> P (FTuple fs).
  Hypothesis Harr : forall f n, P f -> P (FTupleArray f n).

  Fixpoint format_ind' (f : format) : P f :=
    match f with
    | FTypeName n => Hname n
    | FUnit => Hunit
    | FBool => Hbool
    | FInt s w => Hint s w
    | FFloat w => Hfloat w
    | FChar => Hchar
    | FStr => Hstr
    | FBytes => Hbytes
    | FOption f' => Hopt f' (format_ind' f')
    | FSeq f' => Hseq f' (format_ind' f')
    | FMap k v => Hmap k v (format_ind' k) (format_ind' v)
    | FTuple fs =>
      Htuple fs ((fix go (l : list format) : Forall P l :=
                    match l with
                    | [] => Forall_nil P
                    | x :: l' => Forall_cons x (format_ind' x) (go l')
                    end) fs)
    | FTupleArray f' n => Harr f' n (format_ind' f')
    end.
End FormatInd.

Section Good.
  Variable R : string -> codec.
  Hypothesis HR : forall n, good (R n).

  Lemma fcodec_good f : good (fcodec R f).
  Proof.
    induction f using format_ind'; cbn [fcodec].
    - apply HR.
    - apply unit_good.
    - apply bool_good.
    - apply int_good.
    - (* FFloat: its bit pattern *) apply int_good.
    - apply char_good.
    - (* FStr *) apply bytes_good.
    - (* FBytes *) apply bytes_good.
    - now apply option_good.
    - now apply seq_good.
    - (* FMap: a sequence of pairs *) apply seq_good, tuple_good. auto.
    - (* FTuple *) apply tuple_good. apply Forall_map. exact H.
    - (* FTupleArray *) apply tuple_good. now apply repeat_Forall.
  Qed.

  Lemma flist_good {A} (p : A -> format) l : good (tuple_codec (map (fun x => fcodec R (p x)) l)).
  Proof. apply tuple_good, Forall_map, Forall_forall. intros; apply fcodec_good. Qed.

  Lemma vcodec_good v : good (vcodec R v).
  Proof.
    destruct v; cbn [vcodec].
    - apply unit_good.
    - apply fcodec_good.
    - apply (flist_good (fun f => f)).
    - apply (flist_good snd).
  Qed.

  Lemma enum_good vs : good (enum_codec R vs).
  Proof.
    split.
    - intros v rest Ht. cbn [enum_codec ctyp cenc cdec] in *. destruct v as [| | | | | | |idx p]; try discriminate.
      apply andb_prop in Ht as [Hi Ht]. apply N.ltb_lt in Hi. rewrite <- app_assoc, u32_rt by exact Hi.
      destruct (find_variant vs idx) as [va|]; [|discriminate].
      destruct (vcodec_good va) as [Hrt _]. now rewrite Hrt.
    - intros b v rest Hd. cbn [enum_codec cdec] in Hd.
      destruct (u32_dec b) as [[idx r]|] eqn:E; [|discriminate].
      destruct (find_variant vs idx) as [va|] eqn:Ef; [|discriminate].
      destruct (cdec (vcodec R va) r) as [[p r']|] eqn:E2; [|discriminate].
      injection Hd as <- <-. apply u32_canon in E as [-> Hi].
      destruct (vcodec_good va) as [_ Hcan]. apply Hcan in E2 as [-> Ht].
      cbn [enum_codec cenc ctyp]. rewrite Ef, Ht, <- app_assoc, (proj2 (N.ltb_lt _ _) Hi). split; reflexivity.
  Qed.

  Lemma ccodec_good c : good (ccodec R c).
  Proof.
    destruct c; cbn [ccodec].
    - apply unit_good.
    - apply fcodec_good.
    - apply (flist_good (fun f => f)).
    - apply (flist_good snd).
    - apply enum_good.
  Qed.
End Good.

Lemma fail_good : good fail_codec.
Proof. split; [intros ? ? H|intros ? ? ? H]; discriminate. Qed.

Lemma rcodec_good reg : forall name, good (rcodec reg name).
Proof.
  induction reg as [|[n c] reg IH]; intros name; cbn [rcodec].
  - apply fail_good.
  - destruct (String.eqb name n); [apply ccodec_good; exact IH|apply IH].
Qed.

Theorem roundtrip reg f v rest :
  has_type reg f v -> decode reg f (encode reg f v ++ rest) = Some (v, rest).
Proof. intros H. destruct (fcodec_good _ (rcodec_good reg) f) as [Hrt _]. now apply Hrt. Qed.

Corollary roundtrip_nil reg f v : has_type reg f v -> decode reg f (encode reg f v) = Some (v, []).
Proof. intros H. rewrite <- (app_nil_r (encode reg f v)) at 1. now apply roundtrip. Qed.

Theorem canonical reg f b v rest :
  decode reg f b = Some (v, rest) -> b = encode reg f v ++ rest /\ has_type reg f v.
Proof. intros H. destruct (fcodec_good _ (rcodec_good reg) f) as [_ Hcan]. now apply Hcan. Qed.

Corollary decode_injective reg f b1 b2 v r1 r2 :
  decode reg f b1 = Some (v, r1) -> decode reg f b2 = Some (v, r2) -> r1 = r2 -> b1 = b2.
Proof. intros H1 H2 ->. apply canonical in H1 as [-> _]. apply canonical in H2 as [-> _]. reflexivity. Qed.

Corollary decode_prefix_free reg f v1 v2 rest :
  has_type reg f v1 -> has_type reg f v2 -> encode reg f v1 = encode reg f v2 ++ rest -> v1 = v2 /\ rest = [].
Proof.
  intros H1 H2 E. pose proof (roundtrip_nil reg f v1 H1) as R1. rewrite E, (roundtrip reg f v2 rest H2) in R1.
  now injection R1 as -> ->.
Qed.

Corollary encode_injective reg f v1 v2 :
  has_type reg f v1 -> has_type reg f v2 -> encode reg f v1 = encode reg f v2 -> v1 = v2.
Proof. intros H1 H2 E. rewrite <- (app_nil_r (encode reg f v2)) in E. exact (proj1 (decode_prefix_free reg f v1 v2 [] H1 H2 E)). Qed.
