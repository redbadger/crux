From Coq Require Import String List ZArith NArith Bool.
From Coq Require Strings.Byte.
From Crux Require Import Wire.Codec.
Import ListNotations.

Lemma bytes_eqb_refl b : bytes_eqb b b = true.
Proof. induction b as [|x b IH]; cbn [bytes_eqb]; [reflexivity|]. rewrite IH, andb_true_r. now apply Coq.Strings.Byte.byte_dec_lb. Qed.

Lemma bytes_eqb_eq a b : bytes_eqb a b = true <-> a = b.
Proof.
  split; [|intros ->; apply bytes_eqb_refl].
  revert b; induction a as [|x a IH]; intros [|y b] H; cbn [bytes_eqb] in H; try discriminate; [reflexivity|].
  apply andb_prop in H as [H1 H2]. apply Coq.Strings.Byte.byte_dec_bl in H1. apply IH in H2. congruence.
Qed.
