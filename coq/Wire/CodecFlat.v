(* The dependency-ordered reading of a registry (a name is resolved in the rest of the list) coincides
   with the flat one (a Registry is a map from names to containers, every name resolved globally)
   whenever the registry is well-formed: the ordered codec is a solution of the flat equations
     codec(name) = container_codec(lookup name)  with every inner name read by codec again
   (C10_flat_resolution). *)
From Coq Require Import String List ZArith NArith Bool.
From Crux Require Import Wire.Codec Wire.CodecProofs.
Import ListNotations.

Definition codec_eq (c1 c2 : codec) : Prop :=
  (forall v, ctyp c1 v = ctyp c2 v) /\ (forall v, cenc c1 v = cenc c2 v) /\ (forall b, cdec c1 b = cdec c2 b).

Lemma codec_eq_refl c : codec_eq c c.
Proof. repeat split. Qed.
Lemma codec_eq_trans a b c : codec_eq a b -> codec_eq b c -> codec_eq a c.
Proof. intros (A1 & A2 & A3) (B1 & B2 & B3). repeat split; intros; congruence. Qed.
Lemma codec_eq_sym a b : codec_eq a b -> codec_eq b a.
Proof. intros (A1 & A2 & A3). repeat split; intros; congruence. Qed.

Lemma eq_codec_eq a b : a = b -> codec_eq a b.
Proof. intros ->. apply codec_eq_refl. Qed.

Lemma Forall_flat_map_elim {A B} (P : B -> Prop) (Q : A -> Prop) (g : A -> list B) l :
  (forall x, In x l -> Forall P (g x) -> Q x) -> Forall P (flat_map g l) -> Forall Q l.
Proof. intros H HR. apply Forall_flat_map in HR. rewrite Forall_forall in *. intros x Hx. exact (H x Hx (HR x Hx)). Qed.

(* An enum looks its variants up inside its three functions, which are then equal at every argument
   ([codec_eq]), not as terms. *)
Section Ext.
  Variables R1 R2 : string -> codec.
  Let agree := Forall (fun n => R1 n = R2 n).

  Lemma fcodec_ext f : agree (frefs f) -> fcodec R1 f = fcodec R2 f.
  Proof.
    induction f using format_ind'; cbn [fcodec frefs]; intros HR; try reflexivity.
    - exact (Forall_inv HR).
    - now rewrite IHf.
    - now rewrite IHf.
    - apply Forall_app in HR as [H1 H2]. now rewrite IHf1, IHf2.
    - f_equal. apply map_ext_Forall. rewrite Forall_forall in H. exact (Forall_flat_map_elim _ _ _ fs H HR).
    - now rewrite IHf.
  Qed.

  Lemma flist_ext {A} (p : A -> format) l : agree (flat_map (fun x => frefs (p x)) l) ->
    tuple_codec (map (fun x => fcodec R1 (p x)) l) = tuple_codec (map (fun x => fcodec R2 (p x)) l).
  Proof. intros HR. f_equal. apply map_ext_Forall. revert HR. apply Forall_flat_map_elim. intros x _. apply fcodec_ext. Qed.

  Lemma vcodec_ext v : agree (vrefs v) -> vcodec R1 v = vcodec R2 v.
  Proof.
    destruct v; cbn [vcodec vrefs].
    - reflexivity.
    - apply fcodec_ext.
    - apply (flist_ext (fun f => f)).
    - apply (flist_ext snd).
  Qed.

  Lemma enum_ext vs : agree (flat_map (fun e => vrefs (snd (snd e))) vs) -> codec_eq (enum_codec R1 vs) (enum_codec R2 vs).
  Proof.
    intros HR. apply Forall_flat_map in HR.
    assert (HV : forall idx, match find_variant vs idx with Some va => vcodec R1 va = vcodec R2 va | None => True end).
    { intros idx. induction HR as [|[i [nm va]] vs' Hva _ IH]; cbn [find_variant]; [exact I|].
      destruct (i =? idx)%N; [now apply vcodec_ext|exact IH]. }
    repeat split; intros x; cbn [enum_codec ctyp cenc cdec].
    - destruct x; auto. specialize (HV idx). destruct (find_variant vs idx); [now rewrite HV|reflexivity].
    - destruct x; auto. specialize (HV idx). destruct (find_variant vs idx); [now rewrite HV|reflexivity].
    - destruct (u32_dec x) as [[idx r]|]; [|reflexivity]. specialize (HV idx).
      destruct (find_variant vs idx); [now rewrite HV|reflexivity].
  Qed.

  Lemma ccodec_ext c : agree (crefs c) -> codec_eq (ccodec R1 c) (ccodec R2 c).
  Proof.
    destruct c; cbn [ccodec crefs]; intros HR.
    - apply codec_eq_refl.
    - apply eq_codec_eq, fcodec_ext, HR.
    - apply eq_codec_eq, (flist_ext (fun f => f)), HR.
    - apply eq_codec_eq, (flist_ext snd), HR.
    - apply enum_ext, HR.
  Qed.
End Ext.

Lemma mem_name_In n l : mem_name n l = true <-> In n l.
Proof.
  unfold mem_name. rewrite existsb_exists. split.
  - intros (x & Hx & E). apply String.eqb_eq in E. now subst.
  - intros H. exists n. split; [exact H|apply String.eqb_refl].
Qed.

Lemma wf_registry_cons m c reg : wf_registry ((m, c) :: reg) = true ->
  ~ In m (names reg) /\ incl (crefs c) (names reg) /\ cwf c = true /\ wf_registry reg = true.
Proof.
  cbn [wf_registry]. rewrite !andb_true_iff, negb_true_iff, forallb_forall, <- not_true_iff_false, mem_name_In.
  intros [[[H1 H2] H3] H4]. repeat split; auto. intros x Hx. apply mem_name_In, H2, Hx.
Qed.

Lemma wf_lookup_ind (P : registry -> string -> container -> Prop) :
  (forall m c reg, ~ In m (names reg) -> incl (crefs c) (names reg) -> P ((m, c) :: reg) m c) ->
  (forall m c0 reg n c, ~ In m (names reg) -> incl (crefs c) (names reg) -> n <> m -> P reg n c -> P ((m, c0) :: reg) n c) ->
  forall reg, wf_registry reg = true -> forall n c, lookup reg n = Some c -> P reg n c.
Proof.
  intros Hhead Htail reg W n c L.
  enough (incl (crefs c) (names reg) /\ P reg n c) by tauto.
  induction reg as [|[m c0] reg IH]; cbn [lookup] in L; [discriminate|].
  apply wf_registry_cons in W as (Hm & Hc & _ & W). cbn [names map fst].
  destruct (String.eqb_spec n m) as [->|Hne].
  - inversion L; subst c0. split; [now apply incl_tl|now apply Hhead].
  - destruct (IH W L) as [Hc' HP]. split; [now apply incl_tl|now apply Htail].
Qed.

Corollary lookup_refs_defined reg : wf_registry reg = true -> forall n c, lookup reg n = Some c -> incl (crefs c) (names reg).
Proof. revert reg. apply (wf_lookup_ind (fun reg n c => incl (crefs c) (names reg))); intros; now apply incl_tl. Qed.

Lemma rcodec_tail m c0 reg l : ~ In m (names reg) -> incl l (names reg) ->
  Forall (fun x => rcodec reg x = rcodec ((m, c0) :: reg) x) l.
Proof.
  intros Hm Hl. apply Forall_forall. intros x Hx. cbn [rcodec].
  destruct (String.eqb_spec x m) as [->|_]; [destruct (Hm (Hl m Hx))|reflexivity].
Qed.
