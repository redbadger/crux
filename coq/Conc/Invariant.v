(* What the three protocol models (Slots, Waker, Events) have in common. *)
From Coq Require Import List.
Import ListNotations.

Section Run.
  Context {St L : Type} (step : L -> St -> option St) (run : list L -> St -> option St).
  Hypothesis run_nil : forall s, run [] s = Some s.
  Hypothesis run_cons : forall l ls s,
    run (l :: ls) s = match step l s with Some s' => run ls s' | None => None end.
  Variable P : St -> Prop.
  Hypothesis P_step : forall l s s', P s -> step l s = Some s' -> P s'.

  Lemma run_invariant : forall ls s s', P s -> run ls s = Some s' -> P s'.
  Proof.
    induction ls as [|l ls IH]; intros s s' Hs Hr.
    - rewrite run_nil in Hr. injection Hr as <-. exact Hs.
    - rewrite run_cons in Hr. destruct (step l s) as [s1|] eqn:Es; [|discriminate].
      exact (IH s1 s' (P_step l s s1 Hs Es) Hr).
  Qed.
End Run.

Ltac inv_some :=
  match goal with
  | H : Some _ = Some _ |- _ => inversion H; subst; clear H
  | H : None = Some _ |- _ => discriminate H
  end.
