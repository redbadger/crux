(* Invariants of the executor slot protocol (P1) over ALL interleavings, any number of threads. *)
From Coq Require Import List Arith Bool Lia.
From Crux Require Import Conc.Slots Conc.Invariant.
Import ListNotations.

Lemma upd_same {A} (f : nat -> A) t x : upd f t x t = x.
Proof. unfold upd. rewrite Nat.eqb_refl. reflexivity. Qed.

Lemma upd_other {A} (f : nat -> A) t t' x : t' <> t -> upd f t x t' = f t'.
Proof. intros H. unfold upd. apply Nat.eqb_neq in H. rewrite H. reflexivity. Qed.

Lemma witness_new (P : tpc -> Prop) f t x : P x -> exists t1, P (upd f t x t1).
Proof. intros H. exists t. rewrite upd_same. exact H. Qed.

Lemma witness_keep (P : tpc -> Prop) f t x :
  (exists t1, P (f t1)) -> (P (f t) -> P x) -> exists t1, P (upd f t x t1).
Proof.
  intros [t1 H1] Himp. destruct (Nat.eq_dec t1 t) as [->|Hn].
  - exists t. rewrite upd_same. auto.
  - exists t1. rewrite upd_other by exact Hn. exact H1.
Qed.

Lemma mem_in x l : In x l -> mem x l = true.
Proof. intros H. unfold mem. apply existsb_exists. exists x. split; auto. apply Nat.eqb_refl. Qed.

Lemma mem_false_not_in x l : mem x l = false -> ~ In x l.
Proof. intros H Hin. rewrite (mem_in x l Hin) in H. discriminate. Qed.

Lemma count_occ_nat_eq l x : count_occ_nat l x = count_occ Nat.eq_dec l x.
Proof.
  induction l as [|y l IH]; simpl; [reflexivity|]. rewrite IH.
  destruct (Nat.eq_dec y x) as [->|Hn]; [rewrite Nat.eqb_refl|apply Nat.eqb_neq in Hn; rewrite Hn]; reflexivity.
Qed.

Lemma count_nodup : forall l e, NoDup l -> In e l -> count_occ_nat l e = 1.
Proof. intros l e Hn Hin. rewrite count_occ_nat_eq. apply NoDup_count_occ'; assumption. Qed.

Lemma eqb_some {A} k k' (x y : A) : (if Nat.eqb k k' then Some x else None) = Some y -> k' = k /\ x = y.
Proof. destruct (Nat.eqb_spec k k') as [<-|]; [intros [= <-]; auto | discriminate]. Qed.

(* bound to look at the ready queue again before [Out false]: inside run_all, or at [Out true], where it has
   queued work outside run_all and owes one *)
Definition active (p : tpc) : Prop :=
  match p with Out false | Post => False | _ => True end.

(* the same for the spawn queue: in the ready loop only with [did] set, which is did_some_work and sends run_all
   round its outer loop once more *)
Definition recheck (p : tpc) : Prop :=
  match p with
  | Out true | SpawnLoop _ | Inserting _ | RunNew _ | Polling _ _ => True
  | ReadyLoop d | RunReady d _ | Requeue d _ => d = true
  | Out false | Post => False
  end.

(* the same for the effect channel, which is drained from [Post] *)
Definition notidle (p : tpc) : Prop := p <> Out false.

Definition is_polling (p : tpc) : Prop := match p with Polling _ _ => True | _ => False end.

(* run_task takes the future out of its slot under the lock: whoever polls slot k found it there *)
Definition PollInv (sl : nat -> slot) (pc : nat -> tpc) : Prop :=
  forall t fs k, pc t = Polling fs k ->
    sl k = STaken /\ forall t' fs', pc t' = Polling fs' k -> t' = t.

(* a wake-up no poll has answered yet is not lost: its id is queued, or in the hands of the thread that popped it *)
Definition PendInv (pd : nat -> bool) (rd : list nat) (pc : nat -> tpc) : Prop :=
  forall k, pd k = true -> In k rd \/ exists t, holds (pc t) k.

(* [i_ready], [i_spawn], [i_effs]: a non-empty queue has a thread bound to look at it again.  The step that fills
   a queue leaves its own thread as witness (for [i_ready]: the model has no [Wake] from [Post]), and a thread
   ceases to be one only by finding the queue empty. *)
Record Inv (s : st) : Prop := {
  i_poll : PollInv (slots s) (pcs s);
  i_pend : PendInv (pend s) (ready s) (pcs s);
  i_ready : ready s <> [] -> exists t, active (pcs s t);
  i_spawn : 0 < spawnq s -> exists t, recheck (pcs s t);
  i_effs : effs s <> [] -> exists t, notidle (pcs s t);
  i_rets : map snd (rets s) ++ effs s = emitted s;
  i_nodup : NoDup (emitted s)
}.

Lemma inv_init : Inv init.
Proof.
  split; simpl; intros; try discriminate; try congruence; try lia; auto. constructor.
Qed.

Lemma poll_leave sl pc t x : PollInv sl pc -> (is_polling x -> pc t = x) -> PollInv sl (upd pc t x).
Proof.
  intros H Hx t0 fs k Hp.
  assert (Hup : forall t' fs' k', upd pc t x t' = Polling fs' k' -> pc t' = Polling fs' k').
  { intros t' fs' k' E. destruct (Nat.eq_dec t' t) as [->|Hn]; [|rewrite upd_other in E by exact Hn; exact E].
    rewrite upd_same in E. subst x. apply Hx. exact I. }
  destruct (H t0 fs k (Hup _ _ _ Hp)) as [Hs Hu]. split; [exact Hs|].
  intros t' fs' Hp'. exact (Hu t' fs' (Hup _ _ _ Hp')).
Qed.

Lemma poll_take sl pc t fs k : PollInv sl pc -> sl k <> STaken ->
  PollInv (upd sl k STaken) (upd pc t (Polling fs k)).
Proof.
  intros H Hk t0 fs0 k0 Hp.
  destruct (Nat.eq_dec t0 t) as [->|Hn].
  - rewrite upd_same in Hp. inversion Hp; subst. rewrite upd_same. split; auto.
    intros t' fs' Hp'. destruct (Nat.eq_dec t' t) as [->|Hn']; auto.
    rewrite upd_other in Hp' by exact Hn'. destruct (H t' fs' k0 Hp') as [Hs _]. congruence.
  - rewrite upd_other in Hp by exact Hn. destruct (H t0 fs0 k0 Hp) as [Hs Hu].
    assert (k0 <> k) by congruence. rewrite upd_other by assumption. split; auto.
    intros t' fs' Hp'. destruct (Nat.eq_dec t' t) as [->|Hn'].
    + rewrite upd_same in Hp'. inversion Hp'; subst. congruence.
    + rewrite upd_other in Hp' by exact Hn'. eauto.
Qed.

Lemma poll_release sl pc t fs k x v : PollInv sl pc -> pc t = Polling fs k -> ~ is_polling x ->
  PollInv (upd sl k v) (upd pc t x).
Proof.
  intros H Ht Hx t0 fs0 k0 Hp.
  destruct (Nat.eq_dec t0 t) as [->|Hn]; [rewrite upd_same in Hp; subst x; simpl in Hx; tauto|].
  rewrite upd_other in Hp by exact Hn. destruct (H t0 fs0 k0 Hp) as [Hs Hu].
  assert (k0 <> k). { intros ->. apply Hn. destruct (H t fs k Ht) as [_ Hu']. symmetry. eauto. }
  rewrite upd_other by assumption. split; auto.
  intros t' fs' Hp'. destruct (Nat.eq_dec t' t) as [->|Hn']; [rewrite upd_same in Hp'; subst x; simpl in Hx; tauto|].
  rewrite upd_other in Hp' by exact Hn'. eauto.
Qed.

Lemma poll_insert sl pc t k x : PollInv sl pc -> sl k <> STaken -> ~ is_polling x ->
  PollInv (upd sl k SPresent) (upd pc t x).
Proof.
  intros H Hk Hx. apply poll_leave; [|tauto].
  intros t0 fs0 k0 Hp. destruct (H t0 fs0 k0 Hp) as [Hs Hu].
  assert (k0 <> k) by congruence. rewrite upd_other by assumption. auto.
Qed.

Lemma pend_move pd rd pc pd' rd' t x : PendInv pd rd pc ->
  (forall k, pd' k = true -> pd k = true \/ In k rd') ->
  (forall k, pd' k = true -> In k rd \/ holds (pc t) k -> In k rd' \/ holds x k) ->
  PendInv pd' rd' (upd pc t x).
Proof.
  intros H Hnew Hold k Hk. destruct (Hnew k Hk) as [Hp|Hin]; [|left; exact Hin].
  assert (Hx : In k rd' \/ holds x k -> In k rd' \/ exists t1, holds (upd pc t x t1) k).
  { intros [Hin|Hh]; [left; exact Hin|right; exists t; rewrite upd_same; exact Hh]. }
  destruct (H k Hp) as [Hin|[t1 Ht1]]; [apply Hx, Hold; auto|].
  destruct (Nat.eq_dec t1 t) as [->|Hn]; [apply Hx, Hold; auto|].
  right. exists t1. rewrite upd_other by exact Hn. exact Ht1.
Qed.

Lemma pend_keephold pd rd pc t x : PendInv pd rd pc ->
  (forall k, holds (pc t) k -> holds x k) -> PendInv pd rd (upd pc t x).
Proof. intros H Hkeep. apply (pend_move pd rd pc); auto. intros k _ [Hin|Hh]; auto. Qed.

Lemma pend_nohold pd rd pc t x : PendInv pd rd pc ->
  (forall k, ~ holds (pc t) k) -> PendInv pd rd (upd pc t x).
Proof. intros H Hno. apply pend_keephold; [exact H|]. intros k Hk. elim (Hno k Hk). Qed.

Lemma pend_done pd rd pc t x k : PendInv pd rd pc -> (forall kk, holds (pc t) kk -> kk = k) ->
  PendInv (upd pd k false) rd (upd pc t x).
Proof.
  intros H Hk. apply (pend_move pd rd pc); auto; intros kk Hkk;
    (destruct (Nat.eq_dec kk k) as [->|Hne]; [rewrite upd_same in Hkk; discriminate|]).
  - rewrite upd_other in Hkk by exact Hne. auto.
  - intros [Hin|Hh]; [auto|elim Hne; exact (Hk kk Hh)].
Qed.

(* t is the witness for the ready queue and the channel, and for the spawn queue unless that queue grew *)
Lemma inv_move s t x sl rd sq pd : Inv s -> active x ->
  (recheck (pcs s t) -> recheck x) -> recheck x \/ sq <= spawnq s ->
  PollInv sl (upd (pcs s) t x) -> PendInv pd rd (upd (pcs s) t x) ->
  Inv (mk sl rd sq (effs s) (upd (pcs s) t x) pd (emitted s) (rets s)).
Proof.
  intros [_ _ _ Hs _ Ht Hn] Ha Hk Hc Hp Hd. assert (Hi : notidle x) by (intros ->; exact Ha).
  split; simpl; auto; try (intros _; apply witness_new; assumption).
  intros Hpos. destruct Hc as [Hc|Hle]; [apply witness_new; exact Hc|].
  apply witness_keep; [apply Hs; lia|exact Hk].
Qed.

Lemma inv_set_pc s t x : Inv s -> ~ is_polling x -> (forall k, holds (pcs s t) k -> holds x k) ->
  (ready s <> [] -> active (pcs s t) -> active x) -> (0 < spawnq s -> recheck (pcs s t) -> recheck x) ->
  (effs s <> [] -> notidle (pcs s t) -> notidle x) -> Inv (set_pc s t x).
Proof.
  intros [Hp Hd Hr Hs He Ht Hn] Hx Hh Ha Hc Hi. split; simpl; auto; try (intros H; apply witness_keep; auto).
  - apply (poll_leave (slots s) (pcs s)); tauto.
  - apply (pend_keephold (pend s) (ready s) (pcs s)); assumption.
Qed.

Lemma inv_release s t fs k v : Inv s -> pcs s t = Polling fs k ->
  Inv (mk (upd (slots s) k v) (ready s) (spawnq s) (effs s)
          (upd (pcs s) t (if fs then SpawnLoop true else ReadyLoop true)) (pend s) (emitted s) (rets s)).
Proof.
  intros Hi Ep. pose proof (i_poll s Hi) as Hp. pose proof (i_pend s Hi) as Hd.
  apply inv_move; auto; try solve [destruct fs; simpl; auto].
  - eapply (poll_release (slots s) (pcs s)); eauto. destruct fs; simpl; auto.
  - apply (pend_nohold (pend s) (ready s) (pcs s)); auto. intros kk. rewrite Ep. simpl. auto.
Qed.

Lemma inv_step l s s' : Inv s -> step l s = Some s' -> Inv s'.
Proof.
  intros Hi Hst. pose proof Hi as [Hp Hd Hr Hs He Ht Hn].
  (* [inv_set_pc] where only t's pc changes, [inv_move] where t lands on an [active] pc *)
  destruct l; simpl in Hst.
  - (* QEnter *)
    destruct (pcs s t) eqn:Ep; try discriminate. inv_some.
    apply inv_set_pc; rewrite ?Ep; simpl; auto. discriminate.
  - (* QSpawnPop *)
    destruct (pcs s t) eqn:Ep; try discriminate. destruct (spawnq s) eqn:Eq; try discriminate. inv_some.
    apply inv_move; simpl; auto; [apply poll_leave; simpl; tauto |].
    apply pend_nohold; auto. intros kk. rewrite Ep. simpl. auto.
  - (* QInsert *)
    destruct (pcs s t) eqn:Ep; try discriminate. destruct (slots s k) eqn:Ek; try discriminate. inv_some.
    apply inv_move; simpl; auto; [apply poll_insert; simpl; auto; congruence |].
    apply pend_nohold; auto. intros kk. rewrite Ep. simpl. auto.
  - (* QSpawnEmpty *)
    destruct (pcs s t) eqn:Ep; try discriminate. destruct (spawnq s) eqn:Eq; try discriminate. inv_some.
    apply inv_set_pc; rewrite ?Ep, ?Eq; simpl; auto; try lia. discriminate.
  - (* QReadyPop *)
    destruct (pcs s t) eqn:Ep; try discriminate. destruct (ready s) as [|k' rest] eqn:Er; try discriminate.
    apply eqb_some in Hst as [-> <-].
    apply inv_move; rewrite ?Ep; simpl; auto; [apply poll_leave; simpl; tauto |].
    apply (pend_move _ _ _ _ _ _ _ Hd); auto. intros kk _ [[->|Hin]|Hh]; simpl; auto. rewrite Ep in Hh. elim Hh.
  - (* QTaken, from RunNew or from RunReady; so for the next two *)
    destruct (slots s k) eqn:Ek; try discriminate.
    destruct (pcs s t) eqn:Ep; try discriminate;
    (apply eqb_some in Hst as [-> <-]; apply inv_move; simpl; auto;
     [ apply poll_take; auto; congruence
     | apply pend_done; auto; rewrite Ep; simpl; intros kk []; reflexivity ]).
  - (* QMissing *)
    destruct (slots s k) eqn:Ek; try discriminate.
    destruct (pcs s t) eqn:Ep; try discriminate;
    (apply eqb_some in Hst as [-> <-]; apply inv_move; rewrite ?Ep; simpl; auto;
     [ apply poll_leave; simpl; tauto
     | apply pend_done; auto; rewrite Ep; simpl; intros kk []; reflexivity ]).
  - (* QUnavail *)
    destruct (slots s k) eqn:Ek; try discriminate.
    destruct (pcs s t) eqn:Ep; try discriminate;
    (apply eqb_some in Hst as [-> <-];
     apply inv_set_pc; rewrite ?Ep; simpl; auto; discriminate).
  - (* QRequeue *)
    destruct (pcs s t) eqn:Ep; try discriminate. apply eqb_some in Hst as [-> <-].
    apply inv_move; rewrite ?Ep; simpl; auto; [apply poll_leave; simpl; tauto |].
    apply (pend_move _ _ _ _ _ _ _ Hd); auto. rewrite Ep. simpl.
    intros kk _ [Hin| ->]; left; apply in_or_app; simpl; auto.
  - (* QPutBack *)
    destruct (pcs s t) eqn:Ep; try discriminate. apply eqb_some in Hst as [-> <-].
    exact (inv_release s t _ _ SPresent Hi Ep).
  - (* QRemove *)
    destruct (pcs s t) eqn:Ep; try discriminate. apply eqb_some in Hst as [-> <-].
    exact (inv_release s t _ _ SAbsent Hi Ep).
  - (* QReadyEmpty *)
    destruct (pcs s t) as [| | | |d| | | |] eqn:Ep; try discriminate. destruct (ready s) eqn:Er; try discriminate.
    destruct (Bool.eqb d did) eqn:Eb; try discriminate. apply Bool.eqb_prop in Eb. subst. inv_some.
    apply inv_set_pc; rewrite ?Ep, ?Er; destruct did; simpl; auto; try congruence; discriminate.
  - (* Wake *)
    destruct (pcs s t) eqn:Ep; try discriminate; inv_some;
    (apply inv_move; rewrite ?Ep; simpl; auto;
     [ apply poll_leave; simpl; tauto
     | apply (pend_move _ _ _ _ _ _ _ Hd); rewrite ?Ep; simpl;
       [ intros kk Hkk; destruct (Nat.eq_dec kk k) as [->|Hne];
         [ right; apply in_or_app; simpl; auto | left; rewrite upd_other in Hkk; assumption ]
       | intros kk _ [Hin|Hh]; [left; apply in_or_app|]; auto ] ]).
  - (* PEmit *)
    destruct (pcs s t) eqn:Ep; try discriminate. destruct (mem e (emitted s)) eqn:Em; try discriminate. inv_some.
    split; simpl; auto.
    + intros _. exists t. rewrite Ep. discriminate.
    + rewrite app_assoc, Ht. reflexivity.
    + apply (NoDup_Add (Add_app e (emitted s) [])). rewrite app_nil_r.
      split; [exact Hn | exact (mem_false_not_in _ _ Em)].
  - (* PSpawn *)
    destruct (pcs s t) eqn:Ep; try discriminate. inv_some. split; simpl; auto.
    intros _. exists t. rewrite Ep. simpl. auto.
  - (* XSpawn *)
    destruct (pcs s t) eqn:Ep; try discriminate; inv_some;
    (apply inv_move; simpl; auto;
     [ apply poll_leave; simpl; tauto | apply pend_nohold; auto; intros kk; rewrite Ep; simpl; auto ]).
  - (* QDrainOne *)
    destruct (pcs s t) eqn:Ep; try discriminate. destruct (effs s) as [|e' rest] eqn:Ee; try discriminate.
    apply eqb_some in Hst as [-> <-]. split; simpl; auto.
    + intros _. exists t. rewrite Ep. discriminate.
    + rewrite map_app. simpl. rewrite <- app_assoc. simpl. exact Ht.
  - (* QDrainEnd *)
    destruct (pcs s t) eqn:Ep; try discriminate. destruct (effs s) eqn:Ee; try discriminate. inv_some.
    apply inv_set_pc; rewrite ?Ep, ?Ee; simpl; auto; congruence.
Qed.

Lemma inv_run : forall ls s s', Inv s -> run ls s = Some s' -> Inv s'.
Proof. exact (run_invariant step run (fun _ => eq_refl) (fun _ _ _ => eq_refl) Inv inv_step). Qed.

Lemma inv_reachable s : reachable s -> Inv s.
Proof. intros [ls Hr]. exact (inv_run ls init s inv_init Hr). Qed.

(* when every call has returned: both executor queues and the effect channel are empty and no
   wake-up is outstanding *)
Theorem quiescent_at_join : forall s, reachable s -> all_returned s ->
  ready s = [] /\ spawnq s = 0 /\ effs s = [] /\ forall k, pend s k = false.
Proof.
  intros s Hr Hall. pose proof (inv_reachable s Hr) as [Hp Hd Hrd Hs He Ht Hn].
  assert (Hready : ready s = []).
  { destruct (ready s) eqn:E; auto. destruct Hrd as [t Ha]; [congruence|]. rewrite (Hall t) in Ha. elim Ha. }
  repeat split; auto.
  - destruct (spawnq s) eqn:E; auto. destruct Hs as [t Ha]; [lia|]. rewrite (Hall t) in Ha. elim Ha.
  - destruct (effs s) eqn:E; auto. destruct He as [t Ha]; [congruence|]. rewrite (Hall t) in Ha. elim Ha. reflexivity.
  - intros k. destruct (pend s k) eqn:E; auto. destruct (Hd k E) as [Hin|[t Hh]].
    + rewrite Hready in Hin. elim Hin.
    + rewrite (Hall t) in Hh. elim Hh.
Qed.

(* non-vacuity: the contended path is reachable.  Thread 0 spawns a task (slot 0) and polls it; a
   wake-up for slot 0 arrives from thread 1, which enters run_all, finds the slot empty
   (Unavailable) and re-queues; thread 0 puts the task back; thread 1 polls it. *)
Definition contended : list label :=
  [XSpawn 0; QEnter 0; QSpawnPop 0; QInsert 0 0; QTaken 0 0; PEmit 0 7;
   Wake 1 0; QEnter 1; QSpawnEmpty 1; QReadyPop 1 0; QUnavail 1 0; QRequeue 1 0;
   QPutBack 0 0; QReadyPop 1 0; QTaken 1 0].

Example contended_reachable : exists s, run contended init = Some s /\
  pcs s 1 = Polling false 0 /\ pcs s 0 = SpawnLoop true /\ slots s 0 = STaken /\ pend s 0 = false.
Proof. eexists. split; [vm_compute; reflexivity|]. repeat split. Qed.
