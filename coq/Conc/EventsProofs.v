(* Event application (P3): the invariant of the mode that takes an event off the channel under the model lock
   (PopUnderLock), over all interleavings, and two schedules that compare it with the other mode. *)
From Coq Require Import List Arith Bool Lia.
From Crux Require Import Conc.Events Conc.Invariant.
Import ListNotations.

Lemma upd_same {A} (f : nat -> A) t x : upd f t x t = x.
Proof. unfold upd. rewrite Nat.eqb_refl. reflexivity. Qed.

Lemma upd_other {A} (f : nat -> A) t t' x : t' <> t -> upd f t x t' = f t'.
Proof. intros H. unfold upd. apply Nat.eqb_neq in H. rewrite H. reflexivity. Qed.

Lemma proj_app k a b : proj k (a ++ b) = proj k a ++ proj k b.
Proof. unfold proj. apply flat_map_app. Qed.

Lemma ev_eqb_eq a b : ev_eqb a b = true -> a = b.
Proof.
  destruct a, b; simpl; intros H; try discriminate.
  - apply Nat.eqb_eq in H. congruence.
  - apply andb_prop in H as [H1 H2]. apply Nat.eqb_eq in H1, H2. congruence.
Qed.

(* An event is never in a thread's hands between channel and log ([i_nohold]: [THold] is entered by [Pop]
   alone, which this mode lacks), so [i_order] can speak of [log ++ chan].  [i_busy] gives quiescence: [Ret]
   needs an empty channel.  [i_views]: the log only grows. *)
Record Inv (s : st) : Prop := {
  i_order : forall k, proj k (log s ++ chan s) = seq 0 (nxt s k);
  i_nohold : forall t e, pcs s t <> THold e;
  i_busy : chan s <> [] -> exists t, pcs s t <> TIdle;
  i_views : forall n v, In (n, v) (views s) -> v = firstn n (log s) /\ n <= length (log s)
}.

Lemma inv_init : Inv init.
Proof.
  split; simpl; intros; try discriminate; try contradiction; auto; congruence.
Qed.

Lemma views_grow (vs : list (nat * list ev)) (l x : list ev) :
  (forall n v, In (n, v) vs -> v = firstn n l /\ n <= length l) ->
  forall n v, In (n, v) vs -> v = firstn n (l ++ x) /\ n <= length (l ++ x).
Proof.
  intros H n v Hin. destruct (H n v Hin) as [Hv Hn]. split.
  - rewrite firstn_app. replace (n - length l) with 0 by lia. simpl. rewrite app_nil_r. exact Hv.
  - rewrite app_length. lia.
Qed.

Lemma nohold_upd (pc : nat -> tpc) t x : (forall t' e, pc t' <> THold e) -> (forall e, x <> THold e) ->
  forall t' e, upd pc t x t' <> THold e.
Proof.
  intros Hh Hx t' e. destruct (Nat.eq_dec t' t) as [->|Hn]; [rewrite upd_same; apply Hx|].
  rewrite upd_other by exact Hn. apply Hh.
Qed.

Lemma busy_upd (s : st) t x : x <> TIdle -> exists t', upd (pcs s) t x t' <> TIdle.
Proof. intros H. exists t. rewrite upd_same. exact H. Qed.

Lemma inv_step l s s' : Inv s -> step PopUnderLock l s = Some s' -> Inv s'.
Proof.
  intros [Ho Hh Hb Hv] Hst. destruct l; simpl in Hst.
  - (* Call *) destruct (pcs s t) eqn:Ep; try discriminate. inv_some. split; simpl.
    + intros k. rewrite <- app_assoc, proj_app, proj_app.
      replace (proj k (match d with Some n => [Direct n] | None => [] end)) with (@nil nat)
        by (destruct d; reflexivity).
      simpl. rewrite <- proj_app. apply Ho.
    + apply nohold_upd; [exact Hh|discriminate].
    + intros _. apply busy_upd. discriminate.
    + apply views_grow. exact Hv.
  - (* Emit *) destruct (pcs s t) eqn:Ep; try discriminate.
    destruct (Nat.eqb_spec i (nxt s k)) as [->|]; try discriminate. inv_some.
    split; simpl; auto.
    + (* the new event counts for k' exactly when the counter of k' moves *)
      intros k'. rewrite app_assoc, proj_app, Ho. unfold upd, proj. cbn [flat_map app].
      rewrite app_nil_r, (Nat.eqb_sym k').
      destruct (Nat.eqb_spec k k') as [<-|_]; [rewrite seq_S|rewrite app_nil_r]; reflexivity.
    + intros _. exists t. rewrite Ep. discriminate.
  - (* RunEnd *) destruct (pcs s t) eqn:Ep; try discriminate. inv_some. split; simpl; auto.
    + apply nohold_upd; [exact Hh|discriminate].
    + intros _. apply busy_upd. discriminate.
  - (* Pop: disabled *) discriminate.
  - (* Apply: disabled *) discriminate.
  - (* PopApply *) destruct (pcs s t) eqn:Ep; try discriminate.
    destruct (chan s) as [|e' rest] eqn:Ec; try discriminate.
    destruct (ev_eqb e e') eqn:Ee; try discriminate. inv_some. split; simpl.
    + intros k. rewrite <- app_assoc. simpl. apply Ho.
    + apply nohold_upd; [exact Hh|discriminate].
    + intros _. apply busy_upd. discriminate.
    + apply views_grow. exact Hv.
  - (* Ret *) destruct (pcs s t) eqn:Ep; try discriminate.
    destruct (chan s) eqn:Ec; try discriminate. inv_some. split; simpl.
    + intros k. apply Ho.
    + apply nohold_upd; [exact Hh|discriminate].
    + congruence.
    + exact Hv.
  - (* View *) destruct (pcs s t) eqn:Ep; try discriminate. inv_some. split; simpl; auto.
    intros n v [Heq|Hin]; [|apply Hv; exact Hin].
    inversion Heq; subst. split; [rewrite firstn_all; reflexivity | lia].
Qed.

Lemma inv_run : forall ls s s', Inv s -> run PopUnderLock ls s = Some s' -> Inv s'.
Proof.
  exact (run_invariant (step PopUnderLock) (run PopUnderLock) (fun _ => eq_refl) (fun _ _ _ => eq_refl) Inv inv_step).
Qed.

Lemma inv_reachable s : reachable PopUnderLock s -> Inv s.
Proof. intros [ls Hr]. exact (inv_run ls init s inv_init Hr). Qed.

(* the code before f11977b (PopThenLock) applies one task's events out of order.
   caller 0: process_event(Start): the task spawned by update sends E(1,0), E(1,1); run_all
   returns; receive() = E(1,0).  caller 1: process_event(Noop); receive() = E(1,1);
   update(E(1,1)).  caller 0: update(E(1,0)).  Both return. *)
Definition witness : list label :=
  [Call 0 (Some 0); Emit 0 1 0; Emit 0 1 1; RunEnd 0; Pop 0;
   Call 1 (Some 1); RunEnd 1; Pop 1; Apply 1 (Emitted 1 1); RunEnd 1; Ret 1;
   Apply 0 (Emitted 1 0); RunEnd 0; Ret 0].

(* the same calls under the code since f11977b (PopUnderLock) cannot produce that log: the interleaving
   is not even a run (Pop is not a step), and the closest one applies the events in order *)
Definition witness_fixed : list label :=
  [Call 0 (Some 0); Emit 0 1 0; Emit 0 1 1; RunEnd 0;
   Call 1 (Some 1); RunEnd 1; PopApply 1 (Emitted 1 0); RunEnd 1;
   PopApply 0 (Emitted 1 1); RunEnd 0; Ret 0; Ret 1].
