(* Invariants of the waker / eviction protocol (P2) over ALL interleavings, any number of clones. *)
From Coq Require Import List Arith Bool Lia.
From Crux Require Import Conc.Waker Conc.Invariant.
Import ListNotations.

Definition cntf (f : hpc -> bool) (l : list hpc) : nat := length (filter f l).
Definition is_sent (p : hpc) : bool := match p with HSent _ => true | _ => false end.
Definition b2n (b : bool) : nat := if b then 1 else 0.

Lemma live_cntf l : live l = cntf alive l.
Proof. reflexivity. Qed.

Lemma cntf_upd f : forall l h a x, nth_error l h = Some a ->
  cntf f (upd l h x) + b2n (f a) = cntf f l + b2n (f x).
Proof.
  unfold cntf. induction l as [|y l IH]; intros [|h] a x Hn; simpl in *; try discriminate.
  - inversion Hn; subst. destruct (f a), (f x); simpl; lia.
  - specialize (IH h a x Hn). destruct (f y); simpl; lia.
Qed.

Lemma cntf_snoc f l x : cntf f (l ++ [x]) = cntf f l + b2n (f x).
Proof. unfold cntf. rewrite filter_app, app_length. simpl. destruct (f x); simpl; lia. Qed.

Lemma sent_le_live l : cntf is_sent l <= cntf alive l.
Proof.
  unfold cntf. induction l as [|y l IH]; simpl; [lia|].
  destruct y; simpl; lia.
Qed.

Lemma nth_alive_pos : forall l h p, nth_error l h = Some p -> alive p = true -> 0 < cntf alive l.
Proof.
  unfold cntf. induction l as [|y l IH]; intros [|h] p Hn Ha; simpl in *; try discriminate.
  - inversion Hn; subst. rewrite Ha. simpl. lia.
  - specialize (IH h p Hn Ha). destruct (alive y); simpl; lia.
Qed.

Definition own_pc (x : rpc) : bool :=
  match x with RPoll | RSelf1 | RSelf2 | RPolled _ => true | _ => false end.
Definition self_sent (x : rpc) : nat := match x with RSelf1 => 1 | _ => 0 end.

(* Invariant for either order of the loads:
   - the strong count is 1 (arc_waker) + the runner's handle + the clones not yet dropped;
   - the runner's handle lives exactly until drop(waker);
   - while woken is still false, every id sent through this generation was sent by a wake call
     that has not reached its `woken.store` yet (so its clone is still alive). *)
Record Inv (s : st) : Prop := {
  i_count : count s = 1 + b2n (own s) + cntf alive (hs s);
  i_own : own s = own_pc (r s);
  i_sends : woken s = false -> sends s = cntf is_sent (hs s) + self_sent (r s)
}.

Lemma inv_init : Inv init.
Proof. split; simpl; auto. Qed.

(* [Inv] after a step from the fields Hc, Ho, Hs of [Inv] before it *)
Ltac fin3 Hc Ho Hs :=
  split; simpl; rewrite ?cntf_snoc; simpl;
  [ rewrite ?Ho in *; simpl in *; lia
  | rewrite ?Ho; reflexivity || assumption
  | discriminate || (let Hw := fresh "Hw" in intros Hw; specialize (Hs Hw); simpl in Hs; lia) ].

(* entry h goes from what it was (En) to x: how the two counts of [Inv] move *)
Ltac hcase s h En x :=
  let Ha := fresh "Ha" in let Hse := fresh "Hse" in
  pose proof (cntf_upd alive (hs s) h _ x En) as Ha;
  pose proof (cntf_upd is_sent (hs s) h _ x En) as Hse; simpl in Ha, Hse.

Lemma inv_step o l s s' : Inv s -> step o l s = Some s' -> Inv s'.
Proof.
  intros [Hc Ho Hs] Hst. destruct l; simpl in Hst.
  (* the runner's eight labels, each enabled at one pc *)
  1-8: destruct (r s) eqn:Er; try discriminate.
  1-6: (* RClone .. RDropOwn *) inv_some; fin3 Hc Ho Hs.
  1: (* RLoad1 *) destruct o; inv_some; fin3 Hc Ho Hs.
  1: (* RLoad2 *) destruct o; destruct (ld_woken s); destruct (ld_count s); try discriminate; inv_some; fin3 Hc Ho Hs.
  (* the six of a clone's owner *)
  all: destruct (nth_error (hs s) h) as [p0|] eqn:En; try discriminate.
  - destruct (alive p0) eqn:Ea; try discriminate. inv_some. fin3 Hc Ho Hs.
  - destruct p0; try discriminate. inv_some. hcase s h En (HSent byval). fin3 Hc Ho Hs.
  - destruct p0; try discriminate. inv_some. hcase s h En (HStored byval). fin3 Hc Ho Hs.
  - destruct p0; try discriminate. inv_some. hcase s h En (HWoke byval). fin3 Hc Ho Hs.
  - (* HFinish: by value the clone is dropped, by reference it lives on *)
    destruct p0; try discriminate. destruct byval; inv_some.
    + hcase s h En HGone. fin3 Hc Ho Hs.
    + hcase s h En HIdle. fin3 Hc Ho Hs.
  - destruct p0; try discriminate. inv_some. hcase s h En HGone. fin3 Hc Ho Hs.
Qed.

Lemma inv_run o : forall ls s s', Inv s -> run o ls s = Some s' -> Inv s'.
Proof. exact (run_invariant (step o) (run o) (fun _ => eq_refl) (fun _ _ _ => eq_refl) Inv (inv_step o)). Qed.

(* dead s: no handle other than the runner's arc_waker exists; no clone can be made any more *)
Definition dead (s : st) : Prop := own s = false /\ cntf alive (hs s) = 0.

(* With the count read first.  At RLoad1 the runner's handle is gone, so a count below 2 means the state was dead;
   it stays dead while the runner only loads, since a clone comes only from a live clone or from the runner's poll. *)
Definition InvC (s : st) : Prop :=
  (forall p, r s = RLoaded p -> exists c, ld_count s = Some c /\ (c < 2 -> dead s)) /\
  (r s = RDone Cancelled -> dead s /\ sends s = 0).

Lemma dead_no_holder s h p : dead s -> nth_error (hs s) h = Some p -> alive p = false.
Proof.
  intros [_ Hd] Hn. destruct (alive p) eqn:Ea; auto.
  pose proof (nth_alive_pos _ _ _ Hn Ea). lia.
Qed.

Definition holder_of (l : label) : option nat :=
  match l with
  | HClone h | HStart h _ | HStore h | HParent h | HFinish h | HDrop h => Some h
  | _ => None
  end.

Lemma holder_step o l s s' h : holder_of l = Some h -> step o l s = Some s' ->
  ~ dead s /\ r s' = r s /\ ld_count s' = ld_count s.
Proof.
  intros Hl Hst. destruct l; try discriminate Hl; injection Hl as ->; simpl in Hst.
  all: destruct (nth_error (hs s) h) as [p|] eqn:En; [|discriminate].
  all: destruct (alive p) eqn:Ea; [|destruct p; discriminate].
  all: split; [intros Hd; rewrite (dead_no_holder s h p Hd En) in Ea; discriminate|].
  all: destruct p as [|bv|bv|[]|]; try discriminate Hst; injection Hst as <-; split; reflexivity.
Qed.

Lemma invc_step l s s' : Inv s -> InvC s -> step CountFirst l s = Some s' -> InvC s'.
Proof.
  intros Hi [HL HD] Hst. destruct (holder_of l) as [h|] eqn:Hl.
  { (* impossible once dead *)
    destruct (holder_step _ _ _ _ _ Hl Hst) as (Hnd & Hr & Hc). split; rewrite Hr.
    - intros q Hq. destruct (HL q Hq) as [c [Hc' Hd]]. exists c. rewrite Hc. split; [exact Hc'|].
      intros Hlt. elim (Hnd (Hd Hlt)).
    - intros Hd. elim Hnd. apply (HD Hd). }
  destruct l; try discriminate Hl; simpl in Hst; destruct (r s) eqn:Er; try discriminate.
  1-6: (* RClone .. RDropOwn *) inv_some; split; simpl; intros; rewrite ?Er in *; discriminate.
  - (* RLoad1 *)
    inv_some. split; simpl; [|intros; discriminate].
    intros p Hp. exists (count s). split; auto. intros Hlt.
    destruct Hi as [Hc Ho _]. rewrite Er in Ho. simpl in Ho. unfold dead. simpl. split; auto.
    rewrite Hc, Ho in Hlt. simpl in Hlt. lia.
  - (* RLoad2: Cancelled means woken was still false, so every id sent belongs to a wake call in progress,
       whose clone is alive; and the count read earlier left room for no clone *)
    destruct (HL pending eq_refl) as [c [Hc Hdead]]. rewrite Hc in Hst.
    assert (Hcan : decide pending (woken s) c = Cancelled -> dead s /\ sends s = 0).
    { unfold decide. destruct pending; try discriminate. destruct (woken s) eqn:Ew; try discriminate.
      destruct (Nat.ltb_spec c 2) as [Ec|]; try discriminate. intros _.
      specialize (Hdead Ec). split; [exact Hdead|].
      pose proof (i_sends s Hi Ew) as Hs. rewrite Er in Hs. simpl in Hs.
      destruct Hdead as [_ Hz]. pose proof (sent_le_live (hs s)). lia. }
    destruct (ld_woken s); inv_some; (split; simpl; [intros; discriminate|]); intros [= Hd]; exact (Hcan Hd).
Qed.

Lemma invc_init : InvC init.
Proof. split; simpl; intros; discriminate. Qed.

Lemma invc_run : forall ls s s', Inv s -> InvC s -> run CountFirst ls s = Some s' -> Inv s' /\ InvC s'.
Proof.
  intros ls s s' Hi Hc. apply (run_invariant (step CountFirst) (run CountFirst) (fun _ => eq_refl) (fun _ _ _ => eq_refl)
    (fun s => Inv s /\ InvC s)); [|split; assumption].
  intros l s0 s1 [Hi0 Hc0] Hst. split; [exact (inv_step _ _ _ _ Hi0 Hst)|exact (invc_step _ _ _ Hi0 Hc0 Hst)].
Qed.

(* With the count read first, an evicted task has never been sent a wake-up through this
   generation, no clone of its waker exists, and (the state being reachable-closed) that stays so
   in every continuation of the interleaving. *)
Theorem evict_safe_count_first : forall s, reachable CountFirst s ->
  r s = RDone Cancelled -> sends s = 0 /\ live (hs s) = 0 /\ own s = false.
Proof.
  intros s [ls Hr] Hd. destruct (invc_run ls init s inv_init invc_init Hr) as [_ [_ HD]].
  destruct (HD Hd) as [[Ho Hl] Hs]. auto.
Qed.

Corollary no_lost_wake_count_first : forall s, reachable CountFirst s -> ~ lost_wake s.
Proof.
  intros s Hr [Hd Hpos]. destruct (evict_safe_count_first s Hr Hd) as [Hs _]. lia.
Qed.

(* No false retention at the level of the protocol: a pending task that nobody holds a waker to
   and that was not woken IS evicted when the runner runs alone from the end of the poll. *)
Theorem evicts_abandoned : forall o s, reachable o s -> r s = RPolled true -> woken s = false ->
  live (hs s) = 0 ->
  exists s', run o [RDropOwn; RLoad1; RLoad2] s = Some s' /\ r s' = RDone Cancelled.
Proof.
  intros o s [ls Hr] Hp Hw Hl.
  pose proof (inv_run o ls init s inv_init Hr) as [Hc Ho _].
  rewrite Hp in Ho. simpl in Ho. rewrite live_cntf in Hl.
  assert (Hcnt : count s = 2) by (rewrite Hc, Ho, Hl; reflexivity).
  destruct o; simpl; rewrite Hp; simpl; rewrite ?Hw, ?Hcnt; simpl; eexists; split; reflexivity.
Qed.

(* poll registers one clone and returns Pending; drop(waker); woken.load() = false;
   then the clone's owner runs wake() to completion (send, store, parent wake, drop);
   Arc::strong_count() = 1: Cancelled, although the task id sits in the ready queue. *)
Definition witness : list label :=
  [RClone; RPollEnd true; RDropOwn; RLoad1; HStart 0 true; HStore 0; HParent 0; HFinish 0; RLoad2].

Theorem evict_refuted_woken_first : exists s, run WokenFirst witness init = Some s /\
  r s = RDone Cancelled /\ sends s = 1 /\ woken s = true /\
  ld_woken s = Some false /\ ld_count s = Some 1.
Proof. eexists. split; [vm_compute; reflexivity|]. repeat split. Qed.

Corollary lost_wake_woken_first : exists s, reachable WokenFirst s /\ lost_wake s.
Proof.
  destruct evict_refuted_woken_first as [s [Hr [Hd [Hs _]]]].
  exists s. split; [exists witness; exact Hr|]. split; auto. lia.
Qed.
