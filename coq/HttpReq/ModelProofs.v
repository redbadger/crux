(* Lemmas about HttpReq/Model.v: a header map that lists no name twice is determined, up to order, by its
   lookups, so the emitted request does not depend on the iteration oracle; the per-name scan follows the map
   through every call; the boolean trace predicates mean [described], and the model satisfies them. *)
From Coq Require Import List NArith ZArith Bool Lia Permutation Sorted.
From Crux Require Import Base.Res HttpReq.Model.
Import ListNotations.
Open Scope N_scope.

(* HttpResp/RespProofs.v takes the lemmas on [beqb] and [lower] over, by conversion, for Resp.v's copies. *)

Lemma beqb_eq a b : beqb a b = true <-> a = b.
Proof.
  revert b; induction a as [|x a IH]; intros [|y b]; simpl; try (split; congruence).
  rewrite andb_true_iff, N.eqb_eq, IH. split; [intros [-> ->]; reflexivity|intros [= -> ->]; auto].
Qed.
Lemma beqb_refl a : beqb a a = true.
Proof. apply beqb_eq. reflexivity. Qed.
Lemma beqb_neq a b : beqb a b = false <-> a <> b.
Proof. rewrite <- beqb_eq. symmetry. apply not_true_iff_false. Qed.
Lemma beqb_sym a b : beqb a b = beqb b a.
Proof. apply eq_true_iff_eq. rewrite !beqb_eq. split; congruence. Qed.

Lemma lbeqb_eq a b : lbeqb a b = true <-> a = b.
Proof.
  revert b; induction a as [|x a IH]; intros [|y b]; simpl; try (split; congruence).
  rewrite andb_true_iff, beqb_eq, IH. split; [intros [-> ->]; reflexivity|intros [= -> ->]; auto].
Qed.

Lemma lower_byte_idem c : lower_byte (lower_byte c) = lower_byte c.
Proof.
  unfold lower_byte. destruct ((65 <=? c) && (c <=? 90)) eqn:E; [|rewrite E; reflexivity].
  apply andb_prop in E as [E1 E2]. apply N.leb_le in E1. apply N.leb_le in E2.
  assert (H : (c + 32 <=? 90) = false) by (apply N.leb_gt; lia). rewrite H, andb_false_r. reflexivity.
Qed.
Lemma lower_idem s : lower (lower s) = lower s.
Proof. unfold lower. rewrite map_map. apply map_ext. apply lower_byte_idem. Qed.

Lemma bleb_refl a : bleb a a = true.
Proof. induction a as [|x a IH]; simpl; [reflexivity|]. rewrite N.ltb_irrefl, N.eqb_refl. exact IH. Qed.

Lemma bleb_cons x a y b :
  bleb (x :: a) (y :: b) = match x ?= y with Lt => true | Eq => bleb a b | Gt => false end.
Proof. simpl. rewrite N.ltb_compare, N.eqb_compare. destruct (x ?= y); reflexivity. Qed.

Lemma bleb_total a b : bleb a b = true \/ bleb b a = true.
Proof.
  revert b; induction a as [|x a IH]; intros [|y b]; try solve [simpl; auto].
  rewrite !bleb_cons, (N.compare_antisym x y). destruct (x ?= y); simpl; auto.
Qed.
Lemma bleb_antisym a b : bleb a b = true -> bleb b a = true -> a = b.
Proof.
  revert b; induction a as [|x a IH]; intros [|y b]; try (simpl; congruence).
  rewrite !bleb_cons, (N.compare_antisym x y). destruct (N.compare_spec x y) as [->| |]; simpl; try discriminate.
  intros H1 H2. f_equal. apply IH; assumption.
Qed.
Lemma bleb_trans a b c : bleb a b = true -> bleb b c = true -> bleb a c = true.
Proof.
  revert b c; induction a as [|x a IH]; intros [|y b] [|z c]; try (simpl; congruence).
  rewrite !bleb_cons. destruct (N.compare_spec x y) as [->|L1|]; [| |discriminate].
  - destruct (y ?= z); [apply IH|reflexivity|discriminate].
  - intros _. destruct (N.compare_spec y z) as [<-|L2|]; [| |discriminate]; intros _;
      rewrite (proj2 (N.compare_lt_iff x _)) by lia; reflexivity.
Qed.

Lemma CT_lower : lower CT = CT.
Proof. reflexivity. Qed.
(* keep [simpl] from unfolding comparisons against the constant *)
#[local] Opaque CT.

(* Model.v's "association list with distinct keys"; Properties/ spells it [NoDup (map fst m)]. *)
Definition keys (m : hmap) : list bytes := map fst m.
Definition wf (m : hmap) : Prop := NoDup (keys m).

Lemma hget_none_iff n m : hget n m = None <-> ~ In n (keys m).
Proof.
  induction m as [|[k vs] t IH]; simpl; [tauto|].
  destruct (beqb k n) eqn:E.
  - apply beqb_eq in E. split; [discriminate|tauto].
  - apply beqb_neq in E. tauto.
Qed.
Lemma hget_in n vs m : hget n m = Some vs -> In (n, vs) m.
Proof.
  induction m as [|[k ws] t IH]; simpl; [discriminate|].
  destruct (beqb k n) eqn:E; [|auto]. apply beqb_eq in E. intros H. left. congruence.
Qed.
Lemma in_hget n vs m : wf m -> In (n, vs) m -> hget n m = Some vs.
Proof.
  induction m as [|[k ws] t IH]; simpl; intros Hw Hin; [contradiction|].
  apply NoDup_cons_iff in Hw as [Hk Ht]. destruct Hin as [Hin|Hin].
  - injection Hin as -> ->. rewrite beqb_refl. reflexivity.
  - destruct (beqb k n) eqn:E; [|auto].
    apply beqb_eq in E. subst k. destruct Hk. apply (in_map fst _ _ Hin).
Qed.

(* the tests are oriented as [spec_step] writes them *)
Lemma hget_hset n n' vs m : hget n' (hset n vs m) = if beqb n n' then Some vs else hget n' m.
Proof.
  induction m as [|[k ws] t IH]; simpl; [reflexivity|].
  destruct (beqb k n) eqn:E; simpl.
  - apply beqb_eq in E. subst k. destruct (beqb n n'); reflexivity.
  - rewrite IH. destruct (beqb k n') eqn:E'; [|reflexivity].
    apply beqb_eq in E'. subst k. rewrite beqb_sym, E. reflexivity.
Qed.
Lemma hget_hremove n n' m : hget n' (hremove n m) = if beqb n n' then None else hget n' m.
Proof.
  induction m as [|[k ws] t IH]; simpl; [destruct (beqb n n'); reflexivity|].
  destruct (beqb k n) eqn:E; simpl; rewrite IH.
  - apply beqb_eq in E. subst k. destruct (beqb n n'); reflexivity.
  - destruct (beqb k n') eqn:E'; [|reflexivity].
    apply beqb_eq in E'. subst k. rewrite beqb_sym, E. reflexivity.
Qed.
Lemma hget_happend n n' vs m :
  hget n' (happend n vs m)
  = if beqb n n' then Some (match hget n m with Some old => old ++ vs | None => vs end) else hget n' m.
Proof. unfold happend. destruct (hget n m); apply hget_hset. Qed.

Lemma wf_hset n vs m : wf m -> wf (hset n vs m).
Proof.
  unfold wf. induction m as [|[k ws] t IH]; simpl; intros H; [repeat constructor; auto|].
  destruct (beqb k n) eqn:E; [exact H|]. apply NoDup_cons_iff in H as [Hk Ht].
  simpl. constructor; [|auto]. apply hget_none_iff. rewrite hget_hset, beqb_sym, E. apply hget_none_iff, Hk.
Qed.
Lemma wf_hremove n m : wf m -> wf (hremove n m).
Proof.
  unfold wf. induction m as [|[k ws] t IH]; simpl; intros H; [constructor|].
  apply NoDup_cons_iff in H as [Hk Ht]. destruct (beqb k n); [auto|].
  simpl. constructor; [|auto]. apply hget_none_iff. rewrite hget_hremove.
  destruct (beqb n k); [reflexivity|apply hget_none_iff, Hk].
Qed.
Lemma wf_happend n vs m : wf m -> wf (happend n vs m).
Proof. unfold happend. destruct (hget n m); apply wf_hset. Qed.

Lemma wf_perm m m' : Permutation m m' -> wf m -> wf m'.
Proof. intros P. apply Permutation_NoDup, Permutation_map, P. Qed.

Lemma hget_perm n m m' : wf m -> Permutation m m' -> hget n m = hget n m'.
Proof.
  intros Hw P. destruct (hget n m) as [vs|] eqn:E; symmetry.
  - apply in_hget; [exact (wf_perm _ _ P Hw)|]. apply (Permutation_in _ P), hget_in, E.
  - apply hget_none_iff. intros Hin. apply hget_none_iff in E. apply E.
    apply (Permutation_in _ (Permutation_map fst (Permutation_sym P))), Hin.
Qed.
Lemma hget_ext_perm m m' : wf m -> wf m' -> (forall n, hget n m = hget n m') -> Permutation m m'.
Proof.
  intros Hw Hw' H. apply NoDup_Permutation; try (apply (NoDup_map_inv fst); assumption).
  intros [n vs]. split; intros Hin; apply hget_in; [rewrite <- H|rewrite H]; apply in_hget; assumption.
Qed.

Definition name_le (a b : bytes * list bytes) : Prop := bleb (fst a) (fst b) = true.

Lemma insert_entry_perm e l : Permutation (insert_entry e l) (e :: l).
Proof.
  induction l as [|h t IH]; simpl; [apply Permutation_refl|].
  destruct (bleb (fst e) (fst h)); [apply Permutation_refl|].
  eapply Permutation_trans; [apply perm_skip; exact IH|apply perm_swap].
Qed.
Lemma sort_entries_perm l : Permutation (sort_entries l) l.
Proof.
  induction l as [|e t IH]; simpl; [constructor|].
  eapply Permutation_trans; [apply insert_entry_perm|apply perm_skip; exact IH].
Qed.
Lemma insert_entry_sorted e l : StronglySorted name_le l -> StronglySorted name_le (insert_entry e l).
Proof.
  induction l as [|h t IH]; simpl; intros H; [repeat constructor|].
  apply StronglySorted_inv in H as [Ht Hh]. destruct (bleb (fst e) (fst h)) eqn:E.
  - repeat constructor; try assumption. eapply Forall_impl; [|exact Hh]. intros x. apply bleb_trans, E.
  - constructor; [apply IH, Ht|]. apply (Permutation_Forall (Permutation_sym (insert_entry_perm e t))).
    constructor; [|exact Hh]. destruct (bleb_total (fst e) (fst h)); [congruence|assumption].
Qed.
Lemma sort_entries_sorted l : StronglySorted name_le (sort_entries l).
Proof. induction l as [|e t IH]; simpl; [constructor|apply insert_entry_sorted; exact IH]. Qed.

Lemma wf_same_key a b l : wf l -> In a l -> In b l -> fst a = fst b -> a = b.
Proof.
  intros Hw Ha Hb Hk. destruct a as [ka va], b as [kb vb]. simpl in Hk. subst kb.
  pose proof (in_hget _ _ _ Hw Ha) as H1. pose proof (in_hget _ _ _ Hw Hb) as H2. congruence.
Qed.

Lemma sorted_head a t x : StronglySorted name_le (a :: t) -> In x (a :: t) -> name_le a x.
Proof.
  intros Hs [<-|Hin]; [apply bleb_refl|].
  apply StronglySorted_inv in Hs as [_ Hf]. exact (proj1 (Forall_forall _ _) Hf x Hin).
Qed.

(* each head occurs in the other list, whose head is therefore below it: the heads carry the same name, hence
   are the same entry *)
Lemma sorted_unique l l' : StronglySorted name_le l -> StronglySorted name_le l' -> wf l -> Permutation l l' -> l = l'.
Proof.
  revert l'. induction l as [|a t IH]; intros l' Hs Hs' Hw P.
  - apply Permutation_nil in P. congruence.
  - destruct l' as [|a' t']; [apply Permutation_sym, Permutation_nil in P; discriminate|].
    assert (Hin : In a' (a :: t)) by (apply (Permutation_in _ (Permutation_sym P)); left; reflexivity).
    assert (Ha : a = a').
    { apply (wf_same_key a a' (a :: t) Hw (or_introl eq_refl) Hin), bleb_antisym.
      - exact (sorted_head _ _ _ Hs Hin).
      - apply (sorted_head _ _ _ Hs'), (Permutation_in _ P). left; reflexivity. }
    subst a'. f_equal. apply IH.
    + inversion Hs; assumption.
    + inversion Hs'; assumption.
    + apply NoDup_cons_iff in Hw. apply Hw.
    + eapply Permutation_cons_inv. exact P.
Qed.

(* two maps: responses with the same contents may hold their entries in different orders *)
Lemma sort_entries_order_free o1 o2 m m' :
  (forall x, Permutation (o1 x) x) -> (forall x, Permutation (o2 x) x) -> wf m -> Permutation m m' ->
  sort_entries (o1 m) = sort_entries (o2 m').
Proof.
  intros P1 P2 Hw P. apply sorted_unique; try apply sort_entries_sorted.
  - apply (wf_perm m); [|exact Hw]. rewrite sort_entries_perm, P1. reflexivity.
  - rewrite !sort_entries_perm, P1, P2. exact P.
Qed.

Lemma hvalues_app n a b : hvalues n (a ++ b) = hvalues n a ++ hvalues n b.
Proof. unfold hvalues. rewrite filter_app, map_app. reflexivity. Qed.
Lemma hvalues_entry n k vs : hvalues n (map (fun v => (k, v)) vs) = if beqb k n then vs else [].
Proof.
  unfold hvalues. induction vs as [|v t IH]; simpl; [destruct (beqb k n); reflexivity|].
  destruct (beqb k n) eqn:E; simpl; [f_equal; exact IH|exact IH].
Qed.
Lemma hvalues_absent n hs : ~ In n (map fst hs) -> hvalues n hs = [].
Proof.
  unfold hvalues. induction hs as [|[k v] t IH]; simpl; intros H; [reflexivity|].
  destruct (beqb k n) eqn:E; [|tauto]. apply beqb_eq in E. tauto.
Qed.
Lemma flatten_names l : incl (map fst (flatten_entries l)) (keys l).
Proof.
  unfold flatten_entries. induction l as [|[k vs] t IH]; simpl; [apply incl_refl|].
  rewrite map_app, map_map. simpl. intros x Hx. apply in_app_or in Hx as [Hx|Hx]; [|right; auto].
  apply in_map_iff in Hx as [v [Hv _]]. left. exact Hv.
Qed.
Lemma hvalues_flatten n l : wf l ->
  hvalues n (flatten_entries l) = match hget n l with Some vs => vs | None => [] end.
Proof.
  unfold flatten_entries. induction l as [|[k vs] t IH]; simpl; intros Hw; [reflexivity|].
  apply NoDup_cons_iff in Hw as [Hk Ht]. rewrite hvalues_app, hvalues_entry.
  destruct (beqb k n) eqn:E; [|auto].
  apply beqb_eq in E. subst k. rewrite hvalues_absent; [apply app_nil_r|].
  intros Hin. apply Hk, (flatten_names t), Hin.
Qed.

(* The scan's state for a name is the map's entry less the flag "implied by a body", which the map does not
   store.  Only the [false] reading can be followed so: [true] lets a later body replace an implied content
   type but not an explicit one (cf. [sticky_witness]). *)
Definition erase (st : hstate) : option (list bytes) := match st with Some (vs, _) => Some vs | None => None end.

Lemma apply_op_spec o r r' : apply_op o r = Ok r' -> wf (r_headers r) ->
  wf (r_headers r') /\ r_body r' = spec_body [o] (r_body r) /\ r_query r' = spec_query [o] (r_query r) /\
  forall n st, erase st = hget n (r_headers r) -> erase (spec_step false n o st) = hget n (r_headers r').
Proof.
  (* the calls with a [None] argument return no [Ok]: one goal per constructor is left, in order *)
  intros H Hw. destruct o as [n' vs|n' vs|n'|[m|]|k [b|]|[q|]]; simpl in H; try discriminate.
  1, 2: destruct (is_ascii n' && forallb is_ascii vs); [|discriminate].
  3: destruct (is_ascii n'); [|discriminate].
  all: injection H as <-; simpl.
  all: split; [try destruct (hget CT (r_headers r)); auto using wf_hset, wf_happend, wf_hremove|].
  all: split; [reflexivity|]; split; [reflexivity|]; intros n st He.
  all: rewrite ?hget_hset, ?hget_happend, ?hget_hremove.
  - destruct (beqb (lower n') n); [reflexivity|exact He].
  - destruct (beqb (lower n') n) eqn:E; [|exact He].
    apply beqb_eq in E. subst n. rewrite <- He. destruct st as [[old fl]|]; reflexivity.
  - destruct (beqb (lower n') n); [reflexivity|exact He].
  - destruct (beqb CT n); [reflexivity|exact He].
  - (* OBody: map and scan both set the content type only if there is none, whatever the flag *)
    destruct (beqb CT n) eqn:E.
    + apply beqb_eq in E. subst n. destruct st as [[old fl]|]; simpl in He |- *; rewrite <- He.
      * destruct fl; exact He.
      * rewrite hget_hset, beqb_refl. reflexivity.
    + destruct (hget CT (r_headers r)); [exact He|]. rewrite hget_hset, E. exact He.
  - exact He.
Qed.

Lemma spec_body_cons o t acc : spec_body (o :: t) acc = spec_body t (spec_body [o] acc).
Proof. destruct o as [| | | |k [b|]|]; reflexivity. Qed.
Lemma spec_query_cons o t acc : spec_query (o :: t) acc = spec_query t (spec_query [o] acc).
Proof. destruct o as [| | | | |[q|]]; reflexivity. Qed.

Lemma apply_ops_spec ops : forall r r', apply_ops ops r = Ok r' -> wf (r_headers r) ->
  wf (r_headers r') /\ r_body r' = spec_body ops (r_body r) /\ r_query r' = spec_query ops (r_query r) /\
  forall n st, erase st = hget n (r_headers r) -> erase (spec_state false n ops st) = hget n (r_headers r').
Proof.
  induction ops as [|o t IH]; intros r r' H Hw; simpl in H.
  - injection H as <-. auto.
  - destruct (apply_op o r) as [r1| | |] eqn:E; try discriminate.
    destruct (apply_op_spec _ _ _ E Hw) as [Hw1 [Hb1 [Hq1 Hh1]]].
    destruct (IH r1 r' H Hw1) as [Hw' [Hb [Hq Hh]]].
    rewrite spec_body_cons, spec_query_cons, <- Hb1, <- Hq1. simpl. repeat split; auto.
Qed.

Lemma apply_ops_wf ops r : apply_ops ops request0 = Ok r -> wf (r_headers r).
Proof. intros H. apply (apply_ops_spec ops _ _ H). constructor. Qed.

Lemma apply_ops_app a b r : apply_ops (a ++ b) r = bind (apply_ops a r) (apply_ops b).
Proof.
  revert r. induction a as [|o t IH]; intros r; simpl; [reflexivity|].
  destruct (apply_op o r); simpl; try reflexivity. apply IH.
Qed.

Lemma apply_op_outcome o r :
  match apply_op o r with
  | Ok _ => op_outcome o = Sent | Err _ => op_outcome o = Refused | Panic => op_outcome o = Panicked | OutOfFuel => False
  end.
Proof.
  destruct o as [n vs|n vs|n|[m|]|k [b|]|[q|]]; simpl; try reflexivity.
  (* left: [OHeader], [OAppend], [ORemove], which test for ASCII *)
  1, 2: destruct (is_ascii n && forallb is_ascii vs); reflexivity.
  destruct (is_ascii n); reflexivity.
Qed.
Lemma apply_ops_outcome ops : forall r,
  match apply_ops ops r with
  | Ok _ => ops_outcome ops = Sent | Err _ => ops_outcome ops = Refused | Panic => ops_outcome ops = Panicked | OutOfFuel => False
  end.
Proof.
  induction ops as [|o t IH]; intros r; simpl; [reflexivity|].
  pose proof (apply_op_outcome o r) as Ho. destruct (apply_op o r) as [r1| | |]; simpl; rewrite ?Ho; try exact Ho; try reflexivity.
  apply IH.
Qed.

Lemma mentioned_cons o t : mentioned (o :: t) = mentioned [o] ++ mentioned t.
Proof. destruct o; reflexivity. Qed.
Lemma spec_step_unmentioned full n o st : ~ In n (mentioned [o]) -> spec_step full n o st = st.
Proof.
  (* a call mentions at most one name, the one its step compares with [n] *)
  intros H. assert (E : forall x, mentioned [o] = [x] -> beqb x n = false).
  { intros x Hx. apply beqb_neq. intros <-. apply H. rewrite Hx. left. reflexivity. }
  destruct o as [n' vs|n' vs|n'|[m|]|k [b|]|q]; simpl; rewrite ?(E _ eq_refl); reflexivity.
Qed.
Lemma spec_state_unmentioned full n ops : forall st, ~ In n (mentioned ops) -> spec_state full n ops st = st.
Proof.
  induction ops as [|o t IH]; intros st H; [reflexivity|].
  rewrite mentioned_cons, in_app_iff in H. simpl. rewrite spec_step_unmentioned, IH; tauto.
Qed.
Lemma spec_vals_unmentioned full n ops : ~ In n (mentioned ops) -> spec_vals full n ops = [].
Proof. intros H. unfold spec_vals. rewrite spec_state_unmentioned by exact H. reflexivity. Qed.

Lemma mentioned_lower ops : Forall (fun n => lower n = n) (mentioned ops).
Proof.
  induction ops as [|o t IH]; [constructor|]. rewrite mentioned_cons. apply Forall_app. split; [|exact IH].
  destruct o; simpl; auto using lower_idem, CT_lower.
Qed.

(* when all bodies are of one kind [k], a content type implied by a body is [mime_of k], and setting it again
   changes nothing *)
Definition implied_is (k : mime_kind) (st : hstate) : Prop := forall vs, st = Some (vs, true) -> vs = [mime_of k].

Lemma body_kinds_cons o t : body_kinds (o :: t) = body_kinds [o] ++ body_kinds t.
Proof. destruct o as [| | | |k [b|]|]; reflexivity. Qed.
Lemma spec_step_full_is_sticky k n o st : Forall (eq k) (body_kinds [o]) -> implied_is k st ->
  spec_step true n o st = spec_step false n o st.
Proof.
  intros Hk I. destruct o as [| | | |k' [b|]|]; try reflexivity.
  inversion Hk; subst k'. simpl. destruct (beqb CT n); [|reflexivity].
  destruct st as [[vs [|]]|]; try reflexivity. rewrite (I vs eq_refl). reflexivity.
Qed.
Lemma implied_is_step k n o st : Forall (eq k) (body_kinds [o]) -> implied_is k st ->
  implied_is k (spec_step false n o st).
Proof.
  intros Hk I ws. destruct o as [n' vs|n' vs|n'|[m|]|k' [b|]|q]; simpl; try apply I;
    destruct (beqb _ n); try apply I; try discriminate.
  - destruct st as [[? ?]|]; discriminate.
  - inversion Hk; subst k'. destruct st as [[vs [|]]|]; [apply I|apply I|intros [= <-]; reflexivity].
Qed.
Lemma spec_state_full_is_sticky k n ops : Forall (eq k) (body_kinds ops) -> forall st, implied_is k st ->
  spec_state true n ops st = spec_state false n ops st.
Proof.
  induction ops as [|o t IH]; intros Hk st I; [reflexivity|].
  rewrite body_kinds_cons in Hk. apply Forall_app in Hk as [Ho Ht].
  simpl. rewrite (spec_step_full_is_sticky k n o st Ho I). apply IH; [exact Ht|apply implied_is_step; assumption].
Qed.
Lemma all_same_kind_spec l : all_same_kind l = true -> exists k, Forall (eq k) l.
Proof.
  destruct l as [|k t]; simpl; intros H; [exists MPlain (* any kind will do *); constructor|].
  exists k. constructor; [reflexivity|]. rewrite forallb_forall in H. apply Forall_forall. intros k' Hin.
  specialize (H _ Hin). destruct k, k'; simpl in H; congruence.
Qed.
Lemma spec_vals_full_is_sticky n ops : known_rebody ops = false -> spec_vals true n ops = spec_vals false n ops.
Proof.
  unfold known_rebody, spec_vals. intros H. apply negb_false_iff, all_same_kind_spec in H as [k Hk].
  rewrite (spec_state_full_is_sticky k n ops Hk); [reflexivity|discriminate].
Qed.

Lemma forallb_sweep {B} (eqb : B -> B -> bool) (f g : bytes -> B) l :
  (forall x y, eqb x y = true <-> x = y) -> (forall n, ~ In n l -> f n = g n) ->
  (forallb (fun n => eqb (f n) (g n)) l = true <-> forall n, f n = g n).
Proof.
  intros He Hout. rewrite forallb_forall. split; intros H n; [|intros _; apply He, H].
  destruct (in_dec (list_eq_dec N.eq_dec) n l) as [Hin|Hnin]; [apply He, H, Hin|apply Hout, Hnin].
Qed.

Lemma andb4_true_iff a b c d (A B C D : Prop) :
  (a = true <-> A) -> (b = true <-> B) -> (c = true <-> C) -> (d = true <-> D) ->
  (a && b && c && d = true <-> A /\ B /\ C /\ D).
Proof.
  intros Ha Hb Hc Hd. rewrite !andb_true_iff. tauto.
Qed.

Lemma described_nothing_added full method url_str ops r n v : described full method url_str ops r ->
  In (n, v) (q_headers r) -> In n (mentioned ops) /\ In v (spec_vals full n ops).
Proof.
  intros [_ [_ [_ Hh]]] Hin.
  assert (Hv : In v (hvalues n (q_headers r))).
  { apply (in_map snd _ (n, v)), filter_In. split; [exact Hin|apply beqb_refl]. }
  rewrite Hh in Hv. split; [|exact Hv].
  destruct (in_dec (list_eq_dec N.eq_dec) n (mentioned ops)) as [Hm|Hm]; [exact Hm|].
  rewrite spec_vals_unmentioned in Hv by exact Hm. contradiction.
Qed.
Lemma described_names_lower full method url_str ops r : described full method url_str ops r ->
  Forall (fun h => lower (fst h) = fst h) (q_headers r).
Proof.
  intros Hd. apply Forall_forall. intros [n v] Hin.
  apply (proj1 (Forall_forall _ _) (mentioned_lower ops)), (described_nothing_added _ _ _ _ _ _ _ Hd Hin).
Qed.

Lemma described_full_of_sticky method url_str ops r : known_rebody ops = false ->
  described false method url_str ops r -> described true method url_str ops r.
Proof.
  intros Hk [Hm [Hu [Hb Hh]]]. repeat split; try assumption. intros n. rewrite spec_vals_full_is_sticky by exact Hk. apply Hh.
Qed.

(* The trace predicate means the property, on ANY observation (the implementation's included). *)
Lemma request_ok_iff full method url_str ops r :
  request_ok full method url_str ops r = true <-> described full method url_str ops r.
Proof.
  apply andb4_true_iff; try apply beqb_eq.
  apply (forallb_sweep lbeqb); [exact lbeqb_eq|]. intros n Hn. rewrite in_app_iff in Hn.
  rewrite hvalues_absent, spec_vals_unmentioned by tauto. reflexivity.
Qed.

Lemma C14_ok_spec full method url_ok url_str ops o :
  C14_ok full method url_ok url_str ops o = true <->
  match desc_outcome url_ok ops with
  | Sent => exists r, o = ObsSent [r] /\ described full method url_str ops r
  | Refused => o = ObsRefused
  | Panicked => o = ObsPanic
  end.
Proof.
  unfold C14_ok. destruct (desc_outcome url_ok ops); destruct o as [[|r [|r' t]]| |];
    try (split; [discriminate|intros [? [[=] _]]]); try (split; congruence).
  rewrite request_ok_iff. split; [eauto|intros [? [[= <-] H]]; exact H].
Qed.

Section Main.
  Variable url_ok : bool.
  Variable url_str : option bytes -> bytes.
  Variable iter_order : hmap -> hmap.

  Lemma send_cmd_cases method ops :
    match desc_outcome url_ok ops with
    | Sent => exists r, apply_ops ops request0 = Ok r /\
                        send_cmd url_ok url_str iter_order method ops = Ok [into_protocol url_str iter_order method r]
    | Refused => exists e, send_cmd url_ok url_str iter_order method ops = Err e
    | Panicked => send_cmd url_ok url_str iter_order method ops = Panic
    end.
  Proof.
    unfold desc_outcome, send_cmd, start. destruct url_ok; [|reflexivity]. simpl.
    pose proof (apply_ops_outcome ops request0) as Ho.
    destruct (apply_ops ops request0) as [r|e| |]; simpl; rewrite ?Ho; try contradiction; eauto.
  Qed.

  Lemma send_cap_cmd method ops1 ops2 :
    send_cap url_ok url_str iter_order method ops1 ops2 = send_cmd url_ok url_str iter_order method (ops1 ++ ops2).
  Proof.
    unfold send_cap, send_cmd. destruct (start url_ok); simpl; try reflexivity.
    rewrite apply_ops_app. destruct (apply_ops ops1 a); reflexivity.
  Qed.

  (* the two lemmas above hold of any [iter_order]; from here on it rearranges *)
  Hypothesis iter_perm : forall m, Permutation (iter_order m) m.

  Lemma into_protocol_values method r n : wf (r_headers r) ->
    hvalues n (q_headers (into_protocol url_str iter_order method r))
    = match hget n (r_headers r) with Some vs => vs | None => [] end.
  Proof.
    intros Hw. assert (P : Permutation (r_headers r) (sort_entries (iter_order (r_headers r)))).
    { rewrite sort_entries_perm, iter_perm. reflexivity. }
    simpl. rewrite hvalues_flatten, <- (hget_perm n _ _ Hw P); [reflexivity|exact (wf_perm _ _ P Hw)].
  Qed.

  (* [full = false] is what http-types does; the property as stated needs bodies of one kind *)
  Lemma built_described full method ops r : (full = true -> known_rebody ops = false) ->
    apply_ops ops request0 = Ok r -> described full method url_str ops (into_protocol url_str iter_order method r).
  Proof.
    intros Hk H.
    enough (D : described false method url_str ops (into_protocol url_str iter_order method r))
      by (destruct full; [apply described_full_of_sticky; auto|exact D]).
    destruct (apply_ops_spec ops _ _ H (NoDup_nil _)) as [Hw [Hb [Hq Hh]]].
    split; [reflexivity|]. split; [simpl; rewrite Hq; reflexivity|]. split; [exact Hb|].
    intros n. rewrite into_protocol_values by exact Hw.
    unfold spec_vals. rewrite <- (Hh n None) by reflexivity.
    destruct (spec_state false n ops None) as [[vs fl]|]; reflexivity.
  Qed.

  Lemma model_ok full method ops : (full = true -> known_rebody ops = false) ->
    C14_ok full method url_ok url_str ops (obs_of_res (send_cmd url_ok url_str iter_order method ops)) = true.
  Proof.
    intros Hk. apply C14_ok_spec. pose proof (send_cmd_cases method ops) as Hc.
    destruct (desc_outcome url_ok ops); [|destruct Hc as [e ->]; reflexivity|rewrite Hc; reflexivity].
    destruct Hc as [r [Hb ->]]. simpl. eauto using built_described.
  Qed.

  Lemma send_cmd_described full method ops l : (full = true -> known_rebody ops = false) ->
    send_cmd url_ok url_str iter_order method ops = Ok l -> exists r, l = [r] /\ described full method url_str ops r.
  Proof.
    intros Hk H. pose proof (model_ok full method ops Hk) as M. rewrite H in M. apply C14_ok_spec in M.
    destruct (desc_outcome url_ok ops); try discriminate. destruct M as [r [[= ->] Hd]]. eauto.
  Qed.
End Main.

Lemma into_protocol_order_free url_str o1 o2 method r :
  (forall m, Permutation (o1 m) m) -> (forall m, Permutation (o2 m) m) -> wf (r_headers r) ->
  into_protocol url_str o1 method r = into_protocol url_str o2 method r.
Proof.
  intros P1 P2 Hw. unfold into_protocol.
  rewrite (sort_entries_order_free o1 o2 _ _ P1 P2 Hw (Permutation_refl _)). reflexivity.
Qed.

Lemma send_cmd_order_free url_ok url_str o1 o2 method ops :
  (forall m, Permutation (o1 m) m) -> (forall m, Permutation (o2 m) m) ->
  send_cmd url_ok url_str o1 method ops = send_cmd url_ok url_str o2 method ops.
Proof.
  intros P1 P2. unfold send_cmd, start. destruct url_ok; [simpl|reflexivity].
  destruct (apply_ops ops request0) as [r| | |] eqn:E; simpl; try reflexivity.
  rewrite (into_protocol_order_free url_str o1 o2 method r P1 P2 (apply_ops_wf _ _ E)). reflexivity.
Qed.

(* body_string "a", then body_json 1: the two readings of the content type differ
   (C14_content_type_of_replaced_body_refuted) *)
Definition sticky_witness : list op := [OBody MPlain (Some [97]); OBody MJson (Some [49])].
