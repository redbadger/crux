(* Lemmas about HttpReq/Eq.v: the repaired Response equality is content equality for every pair of
   iteration oracles; derived equality is structural equality. *)
From Coq Require Import List NArith Bool Permutation PeanoNat.
From Crux Require Import Base.Res HttpReq.Model HttpReq.ModelProofs HttpReq.Eq.
Import ListNotations.
Open Scope N_scope.

(* [opt_N_eqb], [opt_bytes_eqb] and [opt_lbeqb] unfold to this shape *)
Lemma opt_eqb_eq {A} (f : A -> A -> bool) : (forall x y, f x y = true <-> x = y) -> forall a b,
  match a, b with None, None => true | Some x, Some y => f x y | _, _ => false end = true <-> a = b.
Proof. intros Hf [x|] [y|]; rewrite ?Hf; split; congruence. Qed.
Definition opt_N_eqb_eq : forall a b, opt_N_eqb a b = true <-> a = b := opt_eqb_eq _ N.eqb_eq.
Definition opt_bytes_eqb_eq : forall a b, opt_bytes_eqb a b = true <-> a = b := opt_eqb_eq _ beqb_eq.
Definition opt_lbeqb_eq : forall a b, opt_lbeqb a b = true <-> a = b := opt_eqb_eq _ lbeqb_eq.

(* [headers_eq] finds every entry of [a] in [b]; as [b] has no more entries than [a] and neither lists
   a name twice, the two hold the same entries *)
Lemma headers_eq_iff o1 o2 a b :
  (forall m, Permutation (o1 m) m) -> (forall m, Permutation (o2 m) m) -> wf a -> wf b ->
  (headers_eq o1 o2 a b = true <-> forall n, hget n a = hget n b).
Proof.
  intros P1 P2 Wa Wb. unfold headers_eq.
  rewrite andb_true_iff, Nat.eqb_eq, forallb_forall, (Permutation_length (P1 a)), (Permutation_length (P2 b)).
  split.
  - intros [Hlen Hall] n. apply hget_perm; [exact Wa|].
    apply NoDup_Permutation_bis; [exact (NoDup_map_inv fst _ Wa)|rewrite Hlen; reflexivity|].
    intros [k vs] Hin. apply (Permutation_in _ (Permutation_sym (P1 a))), Hall in Hin. simpl in Hin.
    destruct (hget k b) as [ws|] eqn:E; [|discriminate]. apply lbeqb_eq in Hin. subst ws. apply hget_in, E.
  - intros H. split; [apply Permutation_length, hget_ext_perm; assumption|].
    intros [n vs] Hin. apply (Permutation_in _ (P1 a)), (in_hget _ _ _ Wa) in Hin.
    simpl. rewrite <- H, Hin. apply lbeqb_eq. reflexivity.
Qed.

Lemma resp_eq_iff o1 o2 a b :
  (forall m, Permutation (o1 m) m) -> (forall m, Permutation (o2 m) m) -> wf (p_headers a) -> wf (p_headers b) ->
  (resp_eq o1 o2 a b = true <-> same_contents a b).
Proof.
  (* [resp_eq] tests the headers before the body, [same_contents] lists them after it *)
  intros P1 P2 Wa Wb. etransitivity; [|apply and_iff_compat_l, and_iff_compat_l, and_comm].
  apply andb4_true_iff; auto using opt_N_eqb_eq, N.eqb_eq, opt_bytes_eqb_eq, headers_eq_iff.
Qed.

Lemma same_contents_refl a : same_contents a a.
Proof. repeat split. Qed.
Lemma same_contents_sym a b : same_contents a b -> same_contents b a.
Proof. intros [H1 [H2 [H3 H4]]]. repeat split; try congruence; intros n; symmetry; apply H4. Qed.
Lemma same_contents_trans a b c : same_contents a b -> same_contents b c -> same_contents a c.
Proof.
  intros [H1 [H2 [H3 H4]]] [G1 [G2 [G3 G4]]]. repeat split; try congruence; intros n; rewrite H4; apply G4.
Qed.

Lemma build_response_wf d r : build_response d = Some r -> wf (p_headers r).
Proof.
  unfold build_response, headers_of_calls. destruct (forallb header_call_only (rd_calls d)); [|discriminate].
  destruct (apply_ops (rd_calls d) request0) as [q| | |] eqn:E; try discriminate.
  intros [= <-]. exact (apply_ops_wf _ _ E).
Qed.

Lemma resp_wire_same_contents o1 o2 a b :
  (forall m, Permutation (o1 m) m) -> (forall m, Permutation (o2 m) m) -> wf (p_headers a) -> wf (p_headers b) ->
  same_contents a b -> resp_wire_headers o1 a = resp_wire_headers o2 b.
Proof.
  intros P1 P2 Wa Wb [_ [_ [_ Hh]]]. apply sort_entries_order_free; auto using hget_ext_perm.
Qed.

Lemma val_eqb_eq : forall a b, val_eqb a b = true <-> a = b.
Proof.
  fix IH 1. intros [x|x|t xs] [y|y|u ys]; simpl; try (split; congruence).
  - rewrite N.eqb_eq. split; congruence.
  - rewrite beqb_eq. split; congruence.
  - rewrite andb_true_iff, N.eqb_eq.
    enough (Hl : (fix go (l1 l2 : list val) : bool :=
                    match l1, l2 with [], [] => true | x :: l1', y :: l2' => val_eqb x y && go l1' l2' | _, _ => false end) xs ys = true
                 <-> xs = ys) by (rewrite Hl; split; [intros [-> ->]; reflexivity|intros [= -> ->]; auto]).
    revert ys. induction xs as [|x xs IHxs]; intros [|y ys]; simpl; try (split; congruence).
    rewrite andb_true_iff, IH, IHxs. split; [intros [-> ->]; reflexivity|intros [= -> ->]; auto].
Qed.

(* status 200, no version, no body: the witnesses of Properties/C11.v *)
Definition resp0 (h : hmap) : response := {| p_version := None; p_status := 200; p_headers := h; p_body := None |}.
