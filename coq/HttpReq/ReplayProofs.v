(* Lemmas about HttpReq/Replay.v: the trace of a replay depends neither on the hash map's iteration
   order nor - up to the renumbering of timer ids by first occurrence - on the timer counter. *)
From Coq Require Import List NArith Bool Lia Permutation.
From Crux Require Import Base.Res HttpReq.Model HttpReq.ModelProofs HttpReq.Replay.
Import ListNotations.
Open Scope N_scope.

Lemma http_effects_order_free o1 o2 a m uok ustr ops1 ops2 :
  (forall x, Permutation (o1 x) x) -> (forall x, Permutation (o2 x) x) ->
  http_effects o1 a m uok ustr ops1 ops2 = http_effects o2 a m uok ustr ops1 ops2.
Proof.
  intros P1 P2. unfold http_effects. rewrite !send_cap_cmd.
  rewrite (send_cmd_order_free uok ustr o1 o2 m (ops1 ++ ops2) P1 P2). reflexivity.
Qed.

Definition shift_treq (c : N) (t : treq) : treq :=
  match t with
  | TNow => TNow | TAt id s ns => TAt (c + id) s ns | TAfter id ns => TAfter (c + id) ns | TClear id => TClear (c + id)
  end.
Definition shift_effect (c : N) (e : effect) : effect := match e with ETime t => ETime (shift_treq c t) | _ => e end.
Definition shift_tagged (c : N) (x : api * effect) : api * effect := (fst x, shift_effect c (snd x)).
Definition shift_state (c : N) (st : rstate) : rstate :=
  {| next_id := c + next_id st; timers := map (N.add c) (timers st) |}.

Lemma eqb_shift c x y : N.eqb (c + x) (c + y) = N.eqb x y.
Proof. apply eq_true_iff_eq. rewrite !N.eqb_eq. apply N.add_cancel_l. Qed.

Lemma filter_map_comm {A B} (f : A -> B) p q l : (forall x, p (f x) = q x) -> filter p (map f l) = map f (filter q l).
Proof. intros H. induction l as [|x t IH]; simpl; [reflexivity|]. rewrite H, IH. destruct (q x); reflexivity. Qed.

(* A replay that starts [c] later, with an oracle that yields the same HTTP requests, is the same
   replay with every timer id shifted by [c]. *)
Section Shift.
  Variables o1 o2 : hmap -> hmap.
  Hypothesis same_http : forall a m uok ustr ops1 ops2,
    http_effects o2 a m uok ustr ops1 ops2 = http_effects o1 a m uok ustr ops1 ops2.
  Variable c : N.

  Lemma issue_one_shift op st :
    issue_one o2 op (shift_state c st) =
    (shift_state c (fst (issue_one o1 op st)), map (shift_tagged c) (snd (issue_one o1 op st))).
  Proof.
    destruct op as [a m uok ustr ops1 ops2|a k|a|a ns|a s ns|j|a]; try reflexivity; simpl.
    - (* AHttp: every effect is an [EHttp], which the shift leaves alone *)
      rewrite same_http, map_map. f_equal. apply map_ext_in. intros e He.
      unfold http_effects in He. destruct (match a with Cmd => _ | Cap => _ end); simpl in He; try contradiction.
      apply in_map_iff in He as [r [<- _]]. reflexivity.
    - (* AAfter *) destruct a; unfold shift_state; simpl; rewrite ?map_app, N.add_assoc; reflexivity.
    - (* AAt *) destruct a; unfold shift_state; simpl; rewrite ?map_app, N.add_assoc; reflexivity.
    - (* AClear: the [j]-th of the shifted ids is the [j]-th id, shifted *)
      destruct (timers st) as [|t0 tl]; [reflexivity|].
      pose proof (map_nth (N.add c) (t0 :: tl) t0) as Hp. simpl in Hp |- *. rewrite map_length, Hp. reflexivity.
  Qed.

  Lemma issue_shift ops : forall st,
    issue o2 ops (shift_state c st) =
    (shift_state c (fst (issue o1 ops st)), map (shift_tagged c) (snd (issue o1 ops st))).
  Proof.
    induction ops as [|op t IH]; intros st; simpl; [reflexivity|].
    pose proof (issue_one_shift op st) as H1. destruct (issue_one o1 op st) as [st1 e1]. rewrite H1. simpl.
    pose proof (IH st1) as H2. destruct (issue o1 t st1) as [st2 e2]. rewrite H2. simpl. rewrite map_app. reflexivity.
  Qed.

  Lemma cleared_ids_shift l : cleared_ids (map (shift_tagged c) l) = map (N.add c) (cleared_ids l).
  Proof.
    unfold cleared_ids. induction l as [|[a e] t IH]; simpl; [reflexivity|].
    rewrite IH. destruct e as [r|k|[|id s ns|id ns|id]|]; reflexivity.
  Qed.
  Lemma suppressed_shift cl x : suppressed (map (N.add c) cl) (shift_tagged c x) = suppressed cl x.
  Proof.
    assert (E : forall id, existsb (N.eqb (c + id)) (map (N.add c) cl) = existsb (N.eqb id) cl).
    { intros id. induction cl as [|y t IH]; simpl; [reflexivity|]. rewrite IH, eqb_shift. reflexivity. }
    destruct x as [[|] [r|k|[|id s ns|id ns|id]|]]; simpl; auto.
  Qed.
  Lemma suppress_shift l : suppress (map (shift_tagged c) l) = map (shift_tagged c) (suppress l).
  Proof.
    unfold suppress. rewrite cleared_ids_shift. apply filter_map_comm. intros x. rewrite suppressed_shift. reflexivity.
  Qed.
  Lemma batch_of_shift l : batch_of (map (shift_tagged c) l) = map (shift_effect c) (batch_of l).
  Proof.
    unfold batch_of.
    rewrite (filter_map_comm _ _ is_cap), (filter_map_comm _ _ (fun x => negb (is_cap x))) by reflexivity.
    rewrite map_app, !map_map. reflexivity.
  Qed.

  Lemma replay_from_shift h : forall st,
    replay_from o2 h (shift_state c st) = map (map (shift_effect c)) (replay_from o1 h st).
  Proof.
    induction h as [|[ops|k|] t IH]; intros st; simpl; rewrite ?IH; try reflexivity.
    rewrite issue_shift. destruct (issue o1 ops st) as [st' l]. simpl.
    rewrite suppress_shift, batch_of_shift, IH. reflexivity.
  Qed.

  Lemma replay_shift_same_http h : replay o2 c h = map (map (shift_effect c)) (replay o1 0 h).
  Proof. unfold replay. rewrite <- replay_from_shift. unfold shift_state. simpl. rewrite N.add_0_r. reflexivity. Qed.
End Shift.

Lemma replay_shift o c h : replay o c h = map (map (shift_effect c)) (replay o 0 h).
Proof. apply replay_shift_same_http. reflexivity. Qed.

Lemma index_of_shift c x l : index_of (c + x) (map (N.add c) l) = index_of x l.
Proof. induction l as [|y t IH]; simpl; [reflexivity|]. rewrite IH, eqb_shift. reflexivity. Qed.
Lemma ren_id_shift c seen id :
  ren_id (map (N.add c) seen) (c + id) = (map (N.add c) (fst (ren_id seen id)), snd (ren_id seen id)).
Proof.
  unfold ren_id. rewrite index_of_shift. destruct (index_of id seen); simpl; [reflexivity|].
  rewrite map_app, map_length. reflexivity.
Qed.
Lemma ren_effect_shift c seen e :
  ren_effect (map (N.add c) seen) (shift_effect c e) = (map (N.add c) (fst (ren_effect seen e)), snd (ren_effect seen e)).
Proof.
  destruct e as [r|k|[|id s ns|id ns|id]|]; simpl; try reflexivity;
    rewrite ren_id_shift; destruct (ren_id seen id); reflexivity.
Qed.
Lemma ren_batch_shift c b : forall seen,
  ren_batch (map (N.add c) seen) (map (shift_effect c) b) = (map (N.add c) (fst (ren_batch seen b)), snd (ren_batch seen b)).
Proof.
  induction b as [|e t IH]; intros seen; simpl; [reflexivity|].
  rewrite ren_effect_shift. destruct (ren_effect seen e) as [s1 e']. simpl.
  rewrite IH. destruct (ren_batch s1 t) as [s2 t']. reflexivity.
Qed.
Lemma ren_batches_shift c bs : forall seen,
  ren_batches (map (N.add c) seen) (map (map (shift_effect c)) bs) = ren_batches seen bs.
Proof.
  induction bs as [|b t IH]; intros seen; simpl; [reflexivity|].
  rewrite ren_batch_shift. destruct (ren_batch seen b) as [s1 b']. simpl. rewrite IH. reflexivity.
Qed.
Lemma renumber_shift c bs : renumber (map (map (shift_effect c)) bs) = renumber bs.
Proof. apply (ren_batches_shift c bs []). Qed.

Lemma replay_shift_order_free o1 o2 c h :
  (forall x, Permutation (o1 x) x) -> (forall x, Permutation (o2 x) x) ->
  replay o2 c h = map (map (shift_effect c)) (replay o1 0 h).
Proof. intros P1 P2. apply replay_shift_same_http. intros. apply http_effects_order_free; assumption. Qed.
