(* The evaluation [Closure.iterate] computes the least fixpoint of the [edge] rules; consequently
   the edge set does not depend on the order of the facts, nor on the order in which the crates
   are visited. *)
From Coq Require Import List Bool Arith Lia Permutation.
From Crux Require Import Cli.Closure.
Import ListNotations.

Section Proofs.
  Context {A : Type} (eqb : A -> A -> bool).
  Hypothesis eqb_spec : forall a b, reflect (a = b) (eqb a b).

  Notation facts := (@facts A).
  Notation rel := (@rel A).

  (* what an edge is extended along; [derive1] writes the same list out *)
  Definition all_rels (F : facts) : rel := f_field F ++ f_variant F ++ f_type F.

  (* Datalog semantics of the eight rules at the head of Closure.v: the least set closed under them that
     contains E0.  [d_unit] is rule 1 (is_struct is implied by membership in [f_unit]), [d_root_field] and
     [d_root_variant] rules 2 and 3, [d_step] rules 4-6 in one, [d_leaf_root] and [d_leaf] rules 7 and 8. *)
  Inductive derivable (F : facts) (E0 : rel) : A * A -> Prop :=
  | d_old e : In e E0 -> derivable F E0 e
  | d_unit r : In r (f_root F) -> In r (f_unit F) -> derivable F E0 (r, r)
  | d_leaf_root r : In r (f_root F) -> In r (f_leaf F) -> derivable F E0 (r, r)
  | d_leaf a x : derivable F E0 (a, x) -> In x (f_leaf F) -> derivable F E0 (x, x)
  | d_root_field r c : In r (f_root F) -> In (r, c) (f_field F) -> derivable F E0 (r, c)
  | d_root_variant r c : In r (f_root F) -> In (r, c) (f_variant F) -> derivable F E0 (r, c)
  | d_step a x c : derivable F E0 (a, x) -> In (x, c) (all_rels F) -> derivable F E0 (x, c).

  Lemma all_rels_In F e : In e (all_rels F) <-> In e (f_field F) \/ In e (f_variant F) \/ In e (f_type F).
  Proof. unfold all_rels. rewrite !in_app_iff. reflexivity. Qed.

  Lemma reached_out F E0 x c : In x (f_root F) \/ (exists a, derivable F E0 (a, x)) ->
    In (x, c) (f_field F) \/ In (x, c) (f_variant F) -> derivable F E0 (x, c).
  Proof.
    intros [Hr | [a Ha]] H.
    - destruct H as [H|H]; [apply d_root_field | apply d_root_variant]; assumption.
    - apply (d_step F E0 a); [exact Ha|]. apply all_rels_In. destruct H as [H|H]; auto.
  Qed.

  Lemma reached_leaf F E0 x : In x (f_root F) \/ (exists a, derivable F E0 (a, x)) ->
    In x (f_leaf F) -> derivable F E0 (x, x).
  Proof. intros [Hr | [a Ha]] H; [apply d_leaf_root | apply (d_leaf F E0 a)]; assumption. Qed.

  Lemma existsb_In {B} (eq : B -> B -> bool) x l : (forall y, eq x y = true <-> x = y) -> existsb (eq x) l = true <-> In x l.
  Proof.
    intros He. rewrite existsb_exists. split.
    - intros [y [Hy E]]. apply He in E. subst y. exact Hy.
    - intros H. exists x. split; [exact H | apply He; reflexivity].
  Qed.

  Lemma mem_In x l : mem eqb x l = true <-> In x l.
  Proof. apply existsb_In. intros y. symmetry. apply reflect_iff, eqb_spec. Qed.

  Lemma pair_eqb_spec (a b : A * A) : pair_eqb eqb a b = true <-> a = b.
  Proof.
    destruct a as [a1 a2], b as [b1 b2]. unfold pair_eqb. cbn [fst snd].
    destruct (eqb_spec a1 b1), (eqb_spec a2 b2); cbn; split; congruence.
  Qed.

  Lemma mem_edge_In e E : mem_edge eqb e E = true <-> In e E.
  Proof. apply existsb_In, pair_eqb_spec. Qed.

  Lemma succs_In (r : rel) x c : In c (succs eqb r x) <-> In (x, c) r.
  Proof.
    unfold succs. rewrite in_map_iff. split.
    - intros [[p1 p2] [Hc Hf]]. apply filter_In in Hf as [Hin Heq]. cbn in *. subst.
      destruct (eqb_spec p1 x); [subst; assumption | discriminate].
    - intros H. exists (x, c). split; [reflexivity|]. apply filter_In. split; [assumption|].
      cbn. destruct (eqb_spec x x); congruence.
  Qed.

  Lemma guard_In {B} (b : bool) (x e : B) : In e (if b then [x] else []) <-> b = true /\ e = x.
  Proof. destruct b; cbn; intuition congruence. Qed.

  Lemma succs_pair_In (r : rel) x e : In e (map (pair x) (succs eqb r x)) <-> exists c, e = (x, c) /\ In (x, c) r.
  Proof. rewrite in_map_iff. split; intros [c [H1 H2]]; exists c; (split; [congruence|]); apply succs_In; exact H2. Qed.

  Lemma init_In F e :
    In e (init eqb F) <->
    exists r, In r (f_root F) /\
      (((In r (f_unit F) \/ In r (f_leaf F)) /\ e = (r, r))
       \/ (exists c, e = (r, c) /\ In (r, c) (f_field F)) \/ (exists c, e = (r, c) /\ In (r, c) (f_variant F))).
  Proof.
    unfold init. rewrite in_flat_map. setoid_rewrite in_app_iff. setoid_rewrite in_app_iff.
    setoid_rewrite guard_In. setoid_rewrite succs_pair_In. setoid_rewrite orb_true_iff. setoid_rewrite mem_In. reflexivity.
  Qed.

  Lemma derive1_In F E e :
    In e (derive1 eqb F E) <->
    exists p, In p E /\ ((In (snd p) (f_leaf F) /\ e = (snd p, snd p)) \/ exists c, e = (snd p, c) /\ In (snd p, c) (all_rels F)).
  Proof.
    unfold derive1. fold (all_rels F). generalize (all_rels F). intros r. rewrite in_flat_map. setoid_rewrite in_app_iff.
    setoid_rewrite guard_In. setoid_rewrite succs_pair_In. setoid_rewrite mem_In. reflexivity.
  Qed.

  Lemma add_new_shape new : forall E,
    exists l, add_new eqb E new = E ++ l /\ forall e, In e (E ++ l) <-> In e E \/ In e new.
  Proof.
    unfold add_new. induction new as [|n new IH]; intros E; cbn [fold_left].
    - exists []. rewrite app_nil_r. split; [reflexivity|]. intros e. cbn. tauto.
    - destruct (mem_edge eqb n E) eqn:Hm.
      + destruct (IH E) as [l [Hl H]]. exists l. split; [exact Hl|]. intros e. rewrite (H e). cbn.
        apply mem_edge_In in Hm. intuition (subst; auto).
      + destruct (IH (E ++ [n])) as [l [Hl H]]. exists (n :: l). rewrite <- app_assoc in Hl, H. split; [exact Hl|].
        intros e. rewrite (H e), in_app_iff. cbn. tauto.
  Qed.

  Lemma add_new_In E new e : In e (add_new eqb E new) <-> In e E \/ In e new.
  Proof. destruct (add_new_shape new E) as [l [-> H]]. apply H. Qed.

  Lemma add_new_length E new : length E <= length (add_new eqb E new).
  Proof. destruct (add_new_shape new E) as [l [-> _]]. rewrite app_length. lia. Qed.

  Lemma add_new_same_length E new :
    length (add_new eqb E new) = length E -> forall e, In e new -> In e E.
  Proof.
    destruct (add_new_shape new E) as [l [-> H]]. rewrite app_length. intros Hlen e He.
    assert (l = []) by (destruct l; [reflexivity | cbn in Hlen; lia]). subst l.
    rewrite app_nil_r in H. apply H. right. exact He.
  Qed.

  Lemma iterate_spec F E0 fuel : forall E R,
    iterate eqb fuel F E = Some R ->
    (forall e, In e E -> derivable F E0 e) ->
    (forall e, In e E -> In e R) /\ (forall e, In e R -> derivable F E0 e) /\
    (forall e, In e (derive1 eqb F R) -> In e R).
  Proof.
    induction fuel as [|n IH]; intros E R Hit Hinv; cbn [iterate] in Hit; [discriminate|].
    destruct (Nat.eqb (length (add_new eqb E (derive1 eqb F E))) (length E)) eqn:Hlen.
    - inversion Hit; subst R. split; [auto|]. split; [exact Hinv|].
      apply Nat.eqb_eq in Hlen. apply add_new_same_length. exact Hlen.
    - apply IH in Hit.
      + destruct Hit as [H1 [H2 H3]]. split; [|split; assumption].
        intros e He. apply H1. apply add_new_In. left. exact He.
      + intros e He. apply add_new_In in He as [He|He]; [apply Hinv; exact He|].
        apply derive1_In in He as [[a x] [Hin [[Hl ->] | [c [-> Hr]]]]]; cbn [snd] in *.
        * eapply d_leaf; [apply Hinv; exact Hin | exact Hl].
        * eapply d_step; [apply Hinv; exact Hin | exact Hr].
  Qed.

  Theorem closure_spec F E0 fuel R :
    closure eqb fuel F E0 = Some R -> forall e, In e R <-> derivable F E0 e.
  Proof.
    unfold closure. intros Hc.
    apply (iterate_spec F E0) in Hc.
    - destruct Hc as [Hsub [Hsound Hclosed]]. intros e. split; [apply Hsound|].
      assert (Hinit : forall x, In x (init eqb F) -> In x R) by (intros x Hx; apply Hsub, add_new_In; right; exact Hx).
      intros Hd. induction Hd as [e He | r Hr Hu | r Hr Hu | a x Hd IH Hl | r c Hr Hf | r c Hr Hv | a x c Hd IH Hrel].
      + apply Hsub. apply add_new_In. left. exact He.
      + apply Hinit, init_In. exists r. split; [exact Hr|]. left. split; [left; exact Hu | reflexivity].
      + apply Hinit, init_In. exists r. split; [exact Hr|]. left. split; [right; exact Hu | reflexivity].
      + apply Hclosed, derive1_In. exists (a, x). split; [exact IH|]. left. split; [exact Hl | reflexivity].
      + apply Hinit, init_In. exists r. split; [exact Hr|]. right. left. exists c. split; [reflexivity | exact Hf].
      + apply Hinit, init_In. exists r. split; [exact Hr|]. right. right. exists c. split; [reflexivity | exact Hv].
      + apply Hclosed, derive1_In. exists (a, x). split; [exact IH|]. right. exists c. split; [reflexivity | exact Hrel].
    - intros e He. apply add_new_In in He as [He|He]; [apply d_old; exact He|].
      apply init_In in He as [r [Hr [[[Hu|Hu] ->] | [[c [-> Hf]] | [c [-> Hv]]]]]].
      + apply d_unit; assumption.
      + apply d_leaf_root; assumption.
      + apply d_root_field; assumption.
      + apply d_root_variant; assumption.
  Qed.

  Definition same_set {B} (l l' : list B) : Prop := forall x, In x l <-> In x l'.

  Record facts_equiv (F G : facts) : Prop := {
    fe_root : same_set (f_root F) (f_root G);
    fe_unit : same_set (f_unit F) (f_unit G);
    fe_leaf : same_set (f_leaf F) (f_leaf G);
    fe_field : same_set (f_field F) (f_field G);
    fe_variant : same_set (f_variant F) (f_variant G);
    fe_type : same_set (f_type F) (f_type G);
  }.

  Lemma all_rels_equiv F G : facts_equiv F G -> same_set (all_rels F) (all_rels G).
  Proof.
    intros [_ _ _ Hf Hv Ht] x. rewrite !all_rels_In, (Hf x), (Hv x), (Ht x). reflexivity.
  Qed.

  Record facts_incl (F G : facts) : Prop := {
    fi_root : incl (f_root F) (f_root G);
    fi_unit : incl (f_unit F) (f_unit G);
    fi_leaf : incl (f_leaf F) (f_leaf G);
    fi_field : incl (f_field F) (f_field G);
    fi_variant : incl (f_variant F) (f_variant G);
    fi_type : incl (f_type F) (f_type G);
  }.

  Lemma facts_incl_refl F : facts_incl F F.
  Proof. constructor; apply incl_refl. Qed.

  Lemma facts_incl_union F G : facts_incl F (union F G).
  Proof. constructor; cbn; apply incl_appl, incl_refl. Qed.

  Lemma facts_equiv_incl F G : facts_equiv F G -> facts_incl F G /\ facts_incl G F.
  Proof.
    intros [Hr Hu Hl Hf Hv Ht].
    split; constructor; intros x; first [apply Hr | apply Hu | apply Hl | apply Hf | apply Hv | apply Ht].
  Qed.

  Lemma derivable_mono F G E0 E0' :
    facts_incl F G -> (forall x, In x E0 -> derivable G E0' x) ->
    forall e, derivable F E0 e -> derivable G E0' e.
  Proof.
    intros [Hr Hu Hl Hf Hv Ht] He e Hd.
    induction Hd as [e H | r H1 H2 | r H1 H2 | a x Hd IH H2 | r c H1 H2 | r c H1 H2 | a x c Hd IH Hrel].
    - apply He. exact H.
    - apply d_unit; auto.
    - apply d_leaf_root; auto.
    - eapply d_leaf; [exact IH | auto].
    - apply d_root_field; auto.
    - apply d_root_variant; auto.
    - eapply d_step; [exact IH|]. apply all_rels_In. apply all_rels_In in Hrel as [H|[H|H]]; auto.
  Qed.

  Lemma derivable_equiv F G E0 E0' e :
    facts_equiv F G -> same_set E0 E0' -> derivable F E0 e <-> derivable G E0' e.
  Proof.
    intros HF HE. destruct (facts_equiv_incl F G HF) as [H1 H2].
    split; apply derivable_mono; try assumption; intros x Hx; apply d_old, HE, Hx.
  Qed.

  Theorem closure_order_free F G E0 E0' fuel fuel' R R' :
    facts_equiv F G -> same_set E0 E0' ->
    closure eqb fuel F E0 = Some R -> closure eqb fuel' G E0' = Some R' ->
    same_set R R'.
  Proof.
    intros HF HE H1 H2 e. rewrite (closure_spec _ _ _ _ H1 e), (closure_spec _ _ _ _ H2 e).
    apply derivable_equiv; assumption.
  Qed.

  Fixpoint big_union (acc : facts) (cs : list facts) : facts :=
    match cs with [] => acc | c :: rest => big_union (union acc c) rest end.

  Lemma derivable_restart acc c E e :
    (forall x, In x E <-> derivable acc [] x) ->
    derivable (union acc c) E e <-> derivable (union acc c) [] e.
  Proof.
    intros HE. split; apply derivable_mono; try apply facts_incl_refl.
    - intros x Hx. apply HE in Hx. revert Hx. apply derivable_mono; [apply facts_incl_union | intros y []].
    - intros x [].
  Qed.

  Lemma visit_spec fuel : forall cs acc E R,
    visit eqb fuel acc E cs = Some R ->
    (forall x, In x E <-> derivable acc [] x) ->
    forall x, In x R <-> derivable (big_union acc cs) [] x.
  Proof.
    induction cs as [|c rest IH]; intros acc E R Hv HE; cbn [visit big_union] in *.
    - inversion Hv; subst. exact HE.
    - destruct (closure eqb fuel (union acc c) E) as [E'|] eqn:Hc; [|discriminate].
      eapply IH; [exact Hv|]. intros x. rewrite (closure_spec _ _ _ _ Hc x). apply derivable_restart. exact HE.
  Qed.

  Theorem run_crates_spec fuel cs R :
    run_crates eqb fuel cs = Some R -> forall x, In x R <-> derivable (big_union (@empty A) cs) [] x.
  Proof.
    unfold run_crates. intros H. eapply visit_spec; [exact H|].
    exact (closure_spec empty [] 1 [] eq_refl).
  Qed.

  Lemma big_union_sel {B} (sel : facts -> list B) : (forall F G, sel (union F G) = sel F ++ sel G) ->
    forall cs acc, sel (big_union acc cs) = sel acc ++ flat_map sel cs.
  Proof.
    intros Hsel. induction cs as [|c cs IH]; intros acc; cbn [big_union flat_map]; [symmetry; apply app_nil_r|].
    rewrite IH, Hsel, app_assoc. reflexivity.
  Qed.

  Lemma big_union_same_set {B} (sel : facts -> list B) cs cs' : (forall F G, sel (union F G) = sel F ++ sel G) ->
    same_set cs cs' -> same_set (sel (big_union (@empty A) cs)) (sel (big_union (@empty A) cs')).
  Proof.
    intros Hsel Hs x. rewrite !(big_union_sel sel Hsel), !in_app_iff, !in_flat_map.
    unfold same_set in Hs. setoid_rewrite Hs. reflexivity.
  Qed.

  Lemma big_union_perm cs cs' : Permutation cs cs' -> facts_equiv (big_union (@empty A) cs) (big_union (@empty A) cs').
  Proof.
    intros HP.
    assert (Hs : same_set cs cs') by (intros c; split; apply Permutation_in; [exact HP | apply Permutation_sym; exact HP]).
    constructor; (apply big_union_same_set; [reflexivity | exact Hs]).
  Qed.

  Theorem run_crates_order_free fuel fuel' cs cs' R R' :
    Permutation cs cs' ->
    run_crates eqb fuel cs = Some R -> run_crates eqb fuel' cs' = Some R' ->
    same_set R R'.
  Proof.
    intros HP H1 H2 e. rewrite (run_crates_spec _ _ _ H1 e), (run_crates_spec _ _ _ H2 e).
    apply derivable_equiv; [apply big_union_perm; exact HP | intros x; reflexivity].
  Qed.

  Definition nodes_of_rel (r : rel) : list A := map fst r ++ map snd r.
  (* All edges ever derived lie in [universe F] x [universe F], and a round that is not the last adds one: hence
     the bound |V|^2 on the fuel. *)
  Definition universe (F : facts) : list A := f_root F ++ f_leaf F ++ nodes_of_rel (all_rels F).

  Lemma incl_app_iff {B} (l l' m : list B) : incl (l ++ l') m <-> incl l m /\ incl l' m.
  Proof. split; [apply incl_app_inv | intros [H H']; apply incl_app; assumption]. Qed.

  Lemma universe_incl F V : incl (universe F) V <->
    incl (f_root F) V /\ incl (f_leaf F) V /\ forall x c, In (x, c) (all_rels F) -> In x V /\ In c V.
  Proof.
    unfold universe, nodes_of_rel. rewrite !incl_app_iff. generalize (all_rels F). intros r.
    enough ((incl (map fst r) V /\ incl (map snd r) V) <-> forall x c, In (x, c) r -> In x V /\ In c V) by tauto. split.
    - intros [H1 H2] x c Hin. split; [apply H1, (in_map fst _ _ Hin) | apply H2, (in_map snd _ _ Hin)].
    - intros H. split; intros y Hy; apply in_map_iff in Hy as [[a b] [<- Hy]]; apply (H a b Hy).
  Qed.

  Lemma universe_union F G V : incl (universe F) V -> incl (universe G) V -> incl (universe (union F G)) V.
  Proof.
    rewrite !universe_incl. intros [Hr [Hl Hn]] [Hr' [Hl' Hn']]. split; [|split]; try (apply incl_app; assumption).
    intros x c Hin. apply all_rels_In in Hin. cbn [union f_field f_variant f_type] in Hin. rewrite !in_app_iff in Hin.
    destruct Hin as [[H|H] | [[H|H] | [H|H]]]; [apply Hn | apply Hn' | apply Hn | apply Hn' | apply Hn | apply Hn']; apply all_rels_In; auto.
  Qed.

  Lemma add_new_NoDup new : forall E, NoDup E -> NoDup (add_new eqb E new).
  Proof.
    unfold add_new. induction new as [|n new IH]; intros E HE; cbn [fold_left]; [exact HE|].
    destruct (mem_edge eqb n E) eqn:Hm; apply IH; [exact HE|].
    apply (Permutation_NoDup (Permutation_cons_append E n)). constructor; [|exact HE].
    intros Hin. apply mem_edge_In in Hin. congruence.
  Qed.

  Lemma init_incl F V : incl (universe F) V -> incl (init eqb F) (list_prod V V).
  Proof.
    intros HV e He. apply universe_incl in HV as [Hr [_ Hn]]. apply init_In in He as [r [Hrt H]].
    destruct H as [[_ ->] | [[c [-> Hc]] | [c [-> Hc]]]]; apply in_prod; try (apply Hr, Hrt); apply (Hn r c), all_rels_In; auto.
  Qed.

  Lemma derive1_incl F E V : incl (universe F) V -> incl E (list_prod V V) -> incl (derive1 eqb F E) (list_prod V V).
  Proof.
    intros HV HE e He. apply universe_incl in HV as [_ [_ Hn]]. apply derive1_In in He as [[a x] [Hin H]]. cbn [snd] in H.
    apply HE, in_prod_iff in Hin as [_ Hx].
    destruct H as [[_ ->] | [c [-> Hc]]]; apply in_prod; try exact Hx. apply (Hn x c Hc).
  Qed.

  Lemma add_new_incl (E new U : rel) : incl E U -> incl new U -> incl (add_new eqb E new) U.
  Proof. intros H1 H2 e He. apply add_new_In in He as [He|He]; auto. Qed.

  Lemma iterate_terminates F U : (forall E, incl E U -> incl (derive1 eqb F E) U) ->
    forall fuel E, NoDup E -> incl E U -> length U - length E < fuel ->
    exists R, iterate eqb fuel F E = Some R /\ NoDup R /\ incl R U.
  Proof.
    intros HU. induction fuel as [|n IH]; intros E Hnd Hinc Hlt; [lia|]. cbn [iterate].
    destruct (Nat.eqb (length (add_new eqb E (derive1 eqb F E))) (length E)) eqn:Hlen.
    - exists E. auto.
    - apply Nat.eqb_neq in Hlen. pose proof (add_new_length E (derive1 eqb F E)) as Hge.
      assert (Hnd' : NoDup (add_new eqb E (derive1 eqb F E))) by (apply add_new_NoDup; exact Hnd).
      assert (Hinc' : incl (add_new eqb E (derive1 eqb F E)) U) by (apply add_new_incl; [exact Hinc | apply HU; exact Hinc]).
      pose proof (NoDup_incl_length Hnd' Hinc') as Hle.
      apply IH; [exact Hnd' | exact Hinc' | lia].
  Qed.

  (* one Filter::run always terminates (with the least fixpoint, by closure_spec) *)
  Theorem closure_terminates F E0 V fuel :
    incl (universe F) V -> NoDup E0 -> incl E0 (list_prod V V) -> length (list_prod V V) < fuel ->
    exists R, closure eqb fuel F E0 = Some R /\ NoDup R /\ incl R (list_prod V V).
  Proof.
    intros HV Hnd Hinc Hlt. unfold closure. apply (iterate_terminates F (list_prod V V)).
    - intros E. apply derive1_incl. exact HV.
    - apply add_new_NoDup. exact Hnd.
    - apply add_new_incl; [exact Hinc | apply init_incl; exact HV].
    - lia.
  Qed.

  (* and so does the crate-by-crate loop *)
  Theorem run_crates_terminates V fuel : length (list_prod V V) < fuel ->
    forall cs acc E, incl (universe acc) V -> (forall c, In c cs -> incl (universe c) V) ->
    NoDup E -> incl E (list_prod V V) ->
    exists R, visit eqb fuel acc E cs = Some R.
  Proof.
    intros Hlt. induction cs as [|c rest IH]; intros acc E Hacc Hcs Hnd Hinc; cbn [visit]; [eexists; reflexivity|].
    pose proof (universe_union acc c V Hacc (Hcs c (or_introl eq_refl))) as HU.
    destruct (closure_terminates (union acc c) E V fuel HU Hnd Hinc Hlt) as [R [HR [HndR HincR]]].
    rewrite HR. apply IH; try assumption. intros d Hd. apply Hcs. right. exact Hd.
  Qed.

  (* semi-naive evaluation: after its first round the rules need only be fed the edges the previous round
     added.  Same list, same fuel, at less cost: PipelineProofs.fixture_ok_delta uses it for that. *)
  Fixpoint iterate_delta (fuel : nat) (F : facts) (E new : rel) : option rel :=
    match fuel with
    | O => None
    | S n => let E' := add_new eqb E (derive1 eqb F new) in
             if Nat.eqb (length E') (length E) then Some E else iterate_delta n F E' (skipn (length E) E')
    end.
  Definition closure_delta (fuel : nat) (F : facts) (E0 : rel) : option rel :=
    let E := add_new eqb E0 (init eqb F) in iterate_delta fuel F E E.
  Fixpoint visit_delta (fuel : nat) (acc : facts) (E : rel) (crates : list facts) : option rel :=
    match crates with
    | [] => Some E
    | c :: rest => match closure_delta fuel (union acc c) E with
                   | Some E' => visit_delta fuel (union acc c) E' rest
                   | None => None
                   end
    end.
  Definition run_crates_delta (fuel : nat) (crates : list facts) : option rel := visit_delta fuel empty [] crates.

  Lemma add_new_absorb new : forall E, incl new E -> add_new eqb E new = E.
  Proof.
    unfold add_new. induction new as [|n new IH]; intros E H; cbn [fold_left]; [reflexivity|].
    rewrite (proj2 (mem_edge_In n E) (H n (or_introl eq_refl))). apply IH. intros e He. apply H. right. exact He.
  Qed.

  Lemma iterate_delta_eq F fuel : forall old new,
    incl (derive1 eqb F old) (old ++ new) -> iterate_delta fuel F (old ++ new) new = iterate eqb fuel F (old ++ new).
  Proof.
    induction fuel as [|n IH]; intros old new Hold; cbn [iterate_delta iterate]; [reflexivity|].
    assert (HE : add_new eqb (old ++ new) (derive1 eqb F (old ++ new)) = add_new eqb (old ++ new) (derive1 eqb F new)).
    { unfold derive1 at 1. rewrite flat_map_app. unfold add_new. rewrite fold_left_app.
      f_equal. apply add_new_absorb. exact Hold. }
    rewrite HE. destruct (Nat.eqb _ (length (old ++ new))); [reflexivity|].
    destruct (add_new_shape (derive1 eqb F new) (old ++ new)) as [l [-> H]].
    rewrite skipn_app, skipn_all, Nat.sub_diag. apply (IH (old ++ new) l).
    intros e He. apply H. unfold derive1 in He. rewrite flat_map_app in He.
    apply in_app_or in He as [He|He]; [left; apply Hold; exact He | right; exact He].
  Qed.

  Lemma closure_delta_eq fuel F E0 : closure_delta fuel F E0 = closure eqb fuel F E0.
  Proof. apply (iterate_delta_eq F fuel []). intros e []. Qed.

  Lemma run_crates_delta_eq fuel cs : run_crates_delta fuel cs = run_crates eqb fuel cs.
  Proof.
    unfold run_crates_delta, run_crates. generalize (@empty A) (@nil (A * A)).
    induction cs as [|c cs IH]; intros acc E; cbn [visit_delta visit]; [reflexivity|].
    rewrite closure_delta_eq. destruct (closure eqb fuel (union acc c) E); [apply IH | reflexivity].
  Qed.

  Lemma same_edges_sound (a b : rel) : same_edges eqb a b = true -> same_set a b.
  Proof.
    unfold same_edges, subset_edges. intros H. apply andb_prop in H as [H1 H2]. rewrite forallb_forall in H1, H2.
    intros e. split; intros He; apply mem_edge_In; [apply H1 | apply H2]; exact He.
  Qed.
End Proofs.
