(* Theorems about the Formatter model (Cli/Format.v), for every edge list.  [build] returns a strictly sorted
   association list, which its lookups determine, and a lookup finds the last writer: so the registry depends
   only on the set of containers, and these only on the set of edges, because [pick] does ([pick_ext]). *)
From Coq Require Import List String NArith Bool Permutation Sorted OrderedTypeEx.
From Crux Require Import Cli.Format.
Import ListNotations.
Open Scope string_scope.
Open Scope list_scope.

Lemma filter_map_In {A B} (f : A -> option B) l b : In b (filter_map f l) <-> exists a, In a l /\ f a = Some b.
Proof.
  transitivity (In (Some b) (map f l)).
  - induction l as [|a l IH]; cbn [filter_map map In]; [reflexivity|].
    destruct (f a); cbn [In]; rewrite IH; intuition congruence.
  - rewrite in_map_iff. split; intros [a [H1 H2]]; exists a; auto.
Qed.

Lemma filter_map_map {A B C} (f : B -> option C) (g : A -> B) l :
  filter_map f (map g l) = filter_map (fun a => f (g a)) l.
Proof. induction l as [|a l IH]; cbn; [reflexivity|]. rewrite IH. reflexivity. Qed.

Lemma filter_map_ext {A B} (f g : A -> option B) l : (forall a, f a = g a) -> filter_map f l = filter_map g l.
Proof. intros H. induction l as [|a l IH]; cbn; [reflexivity|]. rewrite H, IH. reflexivity. Qed.

Lemma filter_map_option_map {A B C} (F : A -> option B) (g : B -> C) l :
  filter_map (fun a => option_map g (F a)) l = map g (filter_map F l).
Proof. induction l as [|a l IH]; cbn; [reflexivity|]. destruct (F a); cbn; rewrite IH; reflexivity. Qed.

Lemma filter_of_map {A B} (p : B -> bool) (g : A -> B) l :
  filter p (map g l) = map g (filter (fun a => p (g a)) l).
Proof. induction l as [|a l IH]; cbn; [reflexivity|]. destruct (p (g a)); cbn; rewrite IH; reflexivity. Qed.

Lemma flat_map_map {A B C} (f : B -> list C) (g : A -> B) l : flat_map f (map g l) = flat_map (fun a => f (g a)) l.
Proof. induction l as [|a l IH]; cbn; [reflexivity|]. rewrite IH. reflexivity. Qed.

Lemma find_map {A B} (p : B -> bool) (g : A -> B) l :
  find p (map g l) = option_map g (find (fun a => p (g a)) l).
Proof. induction l as [|a l IH]; cbn; [reflexivity|]. destruct (p (g a)); [reflexivity | exact IH]. Qed.

Lemma existsb_find {A} (p : A -> bool) l : existsb p l = match find p l with Some _ => true | None => false end.
Proof. induction l as [|a l IH]; cbn; [reflexivity|]. destruct (p a); [reflexivity | exact IH]. Qed.

Lemma find_ext_in {A} (p q : A -> bool) l : (forall a, In a l -> p a = q a) -> find p l = find q l.
Proof.
  induction l as [|a l IH]; intros H; cbn; [reflexivity|]. rewrite (H a (or_introl eq_refl)).
  destruct (q a); [reflexivity|]. apply IH. intros b Hb. apply H. right. exact Hb.
Qed.

Definition same_set {B} (l l' : list B) : Prop := forall x, In x l <-> In x l'.

Lemma same_set_match {B C} (l l' : list B) (a b : C) : same_set l l' ->
  match l with [] => a | _ :: _ => b end = match l' with [] => a | _ :: _ => b end.
Proof.
  destruct l as [|x l], l' as [|y l']; intros H; try reflexivity; exfalso; [apply (H y) | apply (H x)]; left; reflexivity.
Qed.

Lemma find_same_set {A} (p : A -> bool) l l' :
  (forall a b, In a l -> In b l -> p a = true -> p b = true -> a = b) ->
  same_set l l' -> find p l = find p l'.
Proof.
  intros Hu Hs. destruct (find p l) as [a|] eqn:E1; destruct (find p l') as [b|] eqn:E2.
  - apply find_some in E1 as [Ha Hpa]. apply find_some in E2 as [Hb Hpb]. apply Hs in Hb. f_equal. apply Hu; assumption.
  - apply find_some in E1 as [Ha Hpa]. apply Hs in Ha. pose proof (find_none _ _ E2 _ Ha). congruence.
  - apply find_some in E2 as [Hb Hpb]. apply Hs in Hb. pose proof (find_none _ _ E1 _ Hb). congruence.
  - reflexivity.
Qed.

Lemma gid_eqb_spec (a b : gid) : reflect (a = b) (gid_eqb a b).
Proof.
  destruct a as [c n], b as [c' n']. unfold gid_eqb. cbn [fst snd].
  destruct (N.eqb_spec n n'), (String.eqb_spec c c'); cbn; constructor; congruence.
Qed.

Section FmtInd.
  Variable P : fmt -> Prop.
  Hypothesis HTn : forall s, P (FTypeName s).
  Hypothesis HPr : forall p, P (FPrim p).
  Hypothesis HOp : forall f, P f -> P (FOption f).
  Hypothesis HSe : forall f, P f -> P (FSeq f).
  Hypothesis HMa : forall k v, P k -> P v -> P (FMap k v).
  Hypothesis HTu : forall fs, Forall P fs -> P (FTuple fs).
  Hypothesis HTa : forall f n, P f -> P (FTupleArray f n).
  Hypothesis HTo : P FTodo.
  Fixpoint fmt_ind' (f : fmt) : P f :=
    match f with
    | FTypeName s => HTn s
    | FPrim p => HPr p
    | FOption x => HOp x (fmt_ind' x)
    | FSeq x => HSe x (fmt_ind' x)
    | FMap k v => HMa k v (fmt_ind' k) (fmt_ind' v)
    | FTuple xs => HTu xs ((fix go (l : list fmt) : Forall P l :=
                              match l with [] => Forall_nil P | x :: l' => Forall_cons x (fmt_ind' x) (go l') end) xs)
    | FTupleArray x n => HTa x n (fmt_ind' x)
    | FTodo => HTo
    end.
End FmtInd.

Lemma prim_eqb_eq a b : prim_eqb a b = true <-> a = b.
Proof. split; [destruct a, b; cbn; intros H; try discriminate; reflexivity | intros ->; destruct b; reflexivity]. Qed.

(* stated elementwise, so that it applies under the nested induction on [fmt] *)
Lemma list_eqb_eq_in {A} (eqb : A -> A -> bool) l :
  Forall (fun a => forall b, eqb a b = true <-> a = b) l -> forall l', list_eqb eqb l l' = true <-> l = l'.
Proof.
  induction 1 as [|a l Ha _ IH]; intros [|b l']; cbn [list_eqb]; try (split; congruence).
  rewrite andb_true_iff, Ha, IH. intuition congruence.
Qed.

Lemma list_eqb_eq {A} (eqb : A -> A -> bool) :
  (forall a b, eqb a b = true <-> a = b) -> forall l l', list_eqb eqb l l' = true <-> l = l'.
Proof. intros He l. apply list_eqb_eq_in, Forall_forall. intros a _. apply He. Qed.

Lemma named_eqb_eq {A} (eqb : A -> A -> bool) :
  (forall a b, eqb a b = true <-> a = b) -> forall p q, named_eqb eqb p q = true <-> p = q.
Proof.
  intros He [n a] [m b]. unfold named_eqb. cbn [fst snd]. rewrite andb_true_iff, String.eqb_eq, He. intuition congruence.
Qed.

Lemma fmt_eqb_eq : forall a b, fmt_eqb a b = true <-> a = b.
Proof.
  induction a using fmt_ind'; intros b; destruct b; cbn [fmt_eqb]; try (split; congruence).
  - rewrite String.eqb_eq. intuition congruence.
  - rewrite prim_eqb_eq. intuition congruence.
  - rewrite IHa. intuition congruence.
  - rewrite IHa. intuition congruence.
  - rewrite andb_true_iff, IHa1, IHa2. intuition congruence.
  - (* the inner [fix go] of [fmt_eqb] is [list_eqb fmt_eqb], unfolded *)
    change (list_eqb fmt_eqb fs fs0 = true <-> FTuple fs = FTuple fs0). rewrite (list_eqb_eq_in _ _ H). intuition congruence.
  - rewrite andb_true_iff, IHa, N.eqb_eq. intuition congruence.
Qed.

Lemma vfmt_eqb_eq a b : vfmt_eqb a b = true <-> a = b.
Proof.
  destruct a, b; cbn [vfmt_eqb]; try (split; congruence).
  - rewrite fmt_eqb_eq. intuition congruence.
  - rewrite (list_eqb_eq _ fmt_eqb_eq). intuition congruence.
  - rewrite (list_eqb_eq _ (named_eqb_eq _ fmt_eqb_eq)). intuition congruence.
Qed.

Lemma container_eqb_eq a b : container_eqb a b = true <-> a = b.
Proof.
  destruct a, b; cbn [container_eqb]; try (split; congruence).
  - rewrite fmt_eqb_eq. intuition congruence.
  - rewrite (list_eqb_eq _ fmt_eqb_eq). intuition congruence.
  - rewrite (list_eqb_eq _ (named_eqb_eq _ fmt_eqb_eq)). intuition congruence.
  - rewrite list_eqb_eq; [intuition congruence|]. intros [i p] [j q]. cbn [fst snd].
    rewrite andb_true_iff, N.eqb_eq, (named_eqb_eq _ vfmt_eqb_eq). intuition congruence.
Qed.

Lemma registry_eqb_eq a b : registry_eqb a b = true <-> a = b.
Proof. apply list_eqb_eq, named_eqb_eq, container_eqb_eq. Qed.

(* the comparison [item_eqb_shallow] makes of each optional attribute *)
Lemma opt_eqb_eq {A} (eqb : A -> A -> bool) (a b : option A) : (forall x y, eqb x y = true <-> x = y) ->
  match a, b with Some s, Some t => eqb s t | None, None => true | _, _ => false end = true -> a = b.
Proof. intros He. destruct a as [x|], b as [y|]; try discriminate; [rewrite He; congruence | reflexivity]. Qed.

Lemma item_eqb_shallow_eq a b : item_eqb_shallow a b = true -> a = b.
Proof.
  destruct a as [i1 n1 rw1 k1 s1 w1 f1 r1], b as [i2 n2 rw2 k2 s2 w2 f2 r2]. unfold item_eqb_shallow.
  cbn [it_id it_name it_raw it_kind it_skip it_wire it_fmt it_range].
  rewrite !andb_true_iff. intros [[[[[[[Hi Hn] Hrw] Hs] Hw] Hf] Hr] Hk].
  destruct (gid_eqb_spec i1 i2); [|discriminate].
  apply (opt_eqb_eq _ _ _ String.eqb_eq) in Hn, Hrw, Hw. apply Bool.eqb_prop in Hs.
  apply (opt_eqb_eq _ _ _ fmt_eqb_eq) in Hf. apply (opt_eqb_eq _ _ _ container_eqb_eq) in Hr.
  assert (k1 = k2)
    by (destruct k1, k2; try discriminate; try reflexivity; apply (list_eqb_eq _ N.eqb_eq) in Hk; congruence).
  congruence.
Qed.

(* the order of the BTreeMap's keys *)
Definition slt (a b : string) : Prop := String.compare a b = Lt.

Lemma slt_trans a b c : slt a b -> slt b c -> slt a c.
Proof.
  unfold slt. intros H1 H2. apply String_as_OT.cmp_lt in H1. apply String_as_OT.cmp_lt in H2.
  apply String_as_OT.cmp_lt. eapply String_as_OT.lt_trans; eassumption.
Qed.
Lemma slt_irrefl a : ~ slt a a.
Proof. unfold slt. intros H. pose proof (String.compare_antisym a a) as E. rewrite H in E. discriminate. Qed.
Lemma compare_gt_lt a b : String.compare a b = Gt -> slt b a.
Proof. unfold slt. intros H. rewrite String.compare_antisym. rewrite H. reflexivity. Qed.

Lemma eqb_false_of_slt a b : slt a b -> String.eqb a b = false.
Proof. intros H. apply String.eqb_neq. intros ->. exact (slt_irrefl _ H). Qed.

Definition sorted (m : registry) : Prop := StronglySorted (fun a b => slt (fst a) (fst b)) m.

Lemma lookup_insert k v m x :
  lookup x (insert k v m) = if String.eqb x k then Some v else lookup x m.
Proof.
  induction m as [|[k' v'] m IH]; cbn [insert lookup]; [reflexivity|].
  destruct (String.compare k k') eqn:Hc; cbn [lookup].
  - apply String.compare_eq_iff in Hc. subst k'. destruct (String.eqb x k); reflexivity.
  - reflexivity.
  - rewrite IH. destruct (String.eqb_spec x k'); [|reflexivity]. subst x.
    rewrite eqb_false_of_slt; [reflexivity | apply compare_gt_lt; exact Hc].
Qed.

Lemma insert_In k v m e : In e (insert k v m) -> e = (k, v) \/ In e m.
Proof.
  induction m as [|[k' v'] m IH]; cbn [insert]; [intros [H|[]]; left; congruence|].
  destruct (String.compare k k'); cbn [In].
  - intros [H|H]; [left; congruence | right; right; exact H].
  - intros [H|[H|H]]; [left; congruence | right; left; exact H | right; right; exact H].
  - intros [H|H]; [right; left; exact H|]. apply IH in H as [H|H]; [left; exact H | right; right; exact H].
Qed.

Lemma insert_sorted k v m : sorted m -> sorted (insert k v m).
Proof.
  unfold sorted. induction m as [|[k' v'] m IH]; cbn [insert]; intros Hs.
  - constructor; constructor.
  - apply StronglySorted_inv in Hs as [Hs Hall].
    destruct (String.compare k k') eqn:Hc.
    + apply String.compare_eq_iff in Hc. subst k'. constructor; assumption.
    + constructor; [constructor; assumption|]. constructor; [exact Hc|].
      eapply Forall_impl; [|exact Hall]. intros a Ha. exact (slt_trans _ _ _ Hc Ha).
    + constructor; [apply IH; exact Hs|].
      apply Forall_forall. intros e He. apply insert_In in He as [He|He].
      * subst e. apply compare_gt_lt. exact Hc.
      * rewrite Forall_forall in Hall. apply Hall. exact He.
Qed.

Definition ins (m : registry) (kv : string * container) : registry := insert (fst kv) (snd kv) m.

Lemma fold_ins_sorted l : forall m, sorted m -> sorted (fold_left ins l m).
Proof. induction l as [|kv l IH]; intros m Hm; cbn [fold_left]; [exact Hm|]. apply IH. apply insert_sorted. exact Hm. Qed.

Lemma build_sorted l : sorted (build l).
Proof. apply fold_ins_sorted. constructor. Qed.

Lemma lookup_app x a b : lookup x (a ++ b) = match lookup x a with Some w => Some w | None => lookup x b end.
Proof. induction a as [|[k v] a IH]; cbn [app lookup]; [reflexivity|]. destruct (String.eqb x k); [reflexivity | exact IH]. Qed.

Lemma fold_ins_lookup l : forall m x,
  lookup x (fold_left ins l m) = match lookup x (rev l) with Some v => Some v | None => lookup x m end.
Proof.
  induction l as [|[k v] l IH]; intros m x; cbn [fold_left rev]; [reflexivity|].
  rewrite IH, lookup_app. unfold ins. cbn [fst snd lookup]. rewrite lookup_insert.
  destruct (lookup x (rev l)); [reflexivity|]. destruct (String.eqb x k); reflexivity.
Qed.

(* last writer wins *)
Lemma build_lookup l x : lookup x (build l) = lookup x (rev l).
Proof. unfold build. change (fun m kv => insert (fst kv) (snd kv) m) with ins. rewrite fold_ins_lookup. destruct (lookup x (rev l)); reflexivity. Qed.

Lemma fold_ins_In l : forall m e, In e (fold_left ins l m) -> In e l \/ In e m.
Proof.
  induction l as [|kv l IH]; intros m e He; cbn [fold_left] in He; [right; exact He|].
  apply IH in He as [He|He]; [left; right; exact He|].
  unfold ins in He. apply insert_In in He as [He|He]; [left; left; destruct kv; exact (eq_sym He) | right; exact He].
Qed.

Lemma build_In l e : In e (build l) -> In e l.
Proof. intros H. apply fold_ins_In in H as [H|[]]. exact H. Qed.

Lemma lookup_In m k v : lookup k m = Some v -> In (k, v) m.
Proof.
  induction m as [|[k' v'] m IH]; cbn [lookup]; [discriminate|].
  destruct (String.eqb_spec k k'); [intros H; left; congruence | intros H; right; apply IH; exact H].
Qed.

Lemma In_lookup m k v : In (k, v) m -> exists v', lookup k m = Some v'.
Proof.
  induction m as [|[k' v'] m IH]; cbn [lookup In]; [intros []|].
  destruct (String.eqb_spec k k'); [eexists; reflexivity|]. intros [H|H]; [congruence | apply IH; exact H].
Qed.

Lemma lookup_none_above k m : Forall (fun e => slt k (fst e)) m -> lookup k m = None.
Proof.
  induction 1 as [|[k' v'] m H1 _ IH]; cbn [lookup fst] in *; [reflexivity|]. rewrite (eqb_false_of_slt _ _ H1). exact IH.
Qed.

Lemma sorted_above k kv m : sorted (kv :: m) -> slt k (fst kv) -> Forall (fun e => slt k (fst e)) (kv :: m).
Proof.
  intros Hs Hk. apply StronglySorted_inv in Hs as [_ Hall]. constructor; [exact Hk|].
  eapply Forall_impl; [|exact Hall]. intros a Ha. exact (slt_trans _ _ _ Hk Ha).
Qed.

Lemma lookup_head k v m : lookup k ((k, v) :: m) = Some v.
Proof. cbn [lookup]. rewrite String.eqb_refl. reflexivity. Qed.

Lemma found_not_below_head k v kv m : sorted (kv :: m) -> lookup k (kv :: m) = Some v -> ~ slt k (fst kv).
Proof.
  intros Hs Hl Hlt. rewrite (lookup_none_above k (kv :: m)) in Hl by (apply sorted_above; assumption). discriminate.
Qed.

Lemma sorted_ext : forall m m', sorted m -> sorted m' -> (forall k, lookup k m = lookup k m') -> m = m'.
Proof.
  induction m as [|[k v] m IH]; intros [|[k' v'] m'] Hs Hs' Hl.
  - reflexivity.
  - specialize (Hl k'). rewrite lookup_head in Hl. discriminate.
  - specialize (Hl k). rewrite lookup_head in Hl. discriminate.
  - pose proof (Hl k) as Hv. pose proof (Hl k') as Hv'. rewrite lookup_head in Hv, Hv'.
    assert (Hk : k = k').
    { destruct (String.compare k k') eqn:Hc.
      - apply String.compare_eq_iff. exact Hc.
      - destruct (found_not_below_head k v _ _ Hs' (eq_sym Hv) Hc).
      - destruct (found_not_below_head k' v' _ _ Hs Hv' (compare_gt_lt _ _ Hc)). }
    subst k'. rewrite lookup_head in Hv. inversion Hv; subst v'.
    apply StronglySorted_inv in Hs as [Hs Hall]. apply StronglySorted_inv in Hs' as [Hs' Hall'].
    f_equal. apply IH; [exact Hs | exact Hs' |].
    intros x. destruct (String.eqb x k) eqn:E.
    + apply String.eqb_eq in E. subst x. rewrite !lookup_none_above; [reflexivity | exact Hall' | exact Hall].
    + specialize (Hl x). cbn [lookup] in Hl. rewrite E in Hl. exact Hl.
Qed.

Definition unambiguous (l : list (string * container)) : Prop :=
  forall k v v', In (k, v) l -> In (k, v') l -> v = v'.

Lemma unambiguousb_sound l : unambiguousb l = true -> unambiguous l.
Proof.
  unfold unambiguousb. intros H k v v' H1 H2. rewrite forallb_forall in H. specialize (H _ H1).
  rewrite forallb_forall in H. specialize (H _ H2). cbn in H. rewrite String.eqb_refl in H.
  apply container_eqb_eq. exact H.
Qed.

Lemma lookup_rev_incl (l l' : list (string * container)) k v :
  incl l l' -> lookup k (rev l) = Some v -> exists v', lookup k (rev l') = Some v'.
Proof. intros Hs E. apply lookup_In, in_rev, Hs, in_rev in E. exact (In_lookup _ _ _ E). Qed.

Lemma build_set_invariant l l' : same_set l l' -> unambiguous l -> build l = build l'.
Proof.
  intros Hs Hu. apply sorted_ext; try apply build_sorted.
  intros k. rewrite !build_lookup.
  destruct (lookup k (rev l)) as [v|] eqn:E1; destruct (lookup k (rev l')) as [v'|] eqn:E2; try reflexivity.
  - apply lookup_In, in_rev in E1. apply lookup_In, in_rev, Hs in E2. f_equal. exact (Hu k v v' E1 E2).
  - destruct (lookup_rev_incl l l' k v (fun x => proj1 (Hs x)) E1). congruence.
  - destruct (lookup_rev_incl l' l k v' (fun x => proj2 (Hs x)) E2). congruence.
Qed.

Lemma build_has_key l k v : In (k, v) l -> has_key k (build l) = true.
Proof.
  intros H. unfold has_key. rewrite build_lookup. apply in_rev in H. apply In_lookup in H as [w Hw]. rewrite Hw. reflexivity.
Qed.

Lemma range_containers_In es kc : In kc (range_containers es) <->
  exists e c, In e es /\ has_field (fst e) (snd e) = true /\ it_range (snd e) = Some c /\ kc = ("Range", c).
Proof.
  unfold range_containers. rewrite filter_map_In. split.
  - intros [e [He Hk]]. destruct (has_field (fst e) (snd e)) eqn:Hh; [|discriminate].
    destruct (it_range (snd e)) as [c|] eqn:Hr; [|discriminate]. exists e, c. inversion Hk. auto.
  - intros [e [c [He [Hh [Hr ->]]]]]. exists e. rewrite Hh, Hr. split; [exact He | reflexivity].
Qed.

Lemma derived_containers_In es kc : In kc (derived_containers es) <->
  (exists e, In e es /\ In kc (container_of (fst e) es)) \/ In kc (range_containers es).
Proof. unfold derived_containers. rewrite in_app_iff, in_flat_map. reflexivity. Qed.

Lemma containers_In es kc : In kc (containers es) <-> In kc (derived_containers es) \/ kc = ("Request", request_container).
Proof. unfold containers. rewrite in_app_iff. cbn [In]. intuition congruence. Qed.

Lemma container_of_inv x es k c : In (k, c) (container_of x es) ->
  it_name x = Some k /\
  match it_kind x with
  | KStructUnit => c = CUnitStruct
  | KStructPlain _ => c = match named_fmts x es with [] => CUnitStruct | fs => CStruct fs end
  | KStructTuple _ => c = match plain_fmts x es with [] => CUnitStruct | [f] => CNewTypeStruct f | fs => CTupleStruct fs end
  | KEnum _ => children has_variant x es <> [] /\ c = CEnum (enum_entries 0 (variants x es) es)
  | _ => False
  end.
Proof.
  unfold container_of. destruct (it_name x) as [n|]; [|intros []].
  destruct (it_kind x); try (intros [[= <- <-]|[]]; auto); try (intros []).
  destruct (children has_variant x es); [intros [] | intros [[= <- <-]|[]]; split; [reflexivity | split; [discriminate | reflexivity]]].
Qed.

(* an id names one item (ItemNode equality is equality of ids) *)
Definition fun_ids (es : edges) : Prop :=
  forall a b, In a (items_of es) -> In b (items_of es) -> same_item a b = true -> a = b.

Lemma items_of_In es x : In x (items_of es) <-> exists e, In e es /\ (x = fst e \/ x = snd e).
Proof.
  unfold items_of. rewrite in_flat_map. split.
  - intros [e [He [H|[H|[]]]]]; exists e; split; auto.
  - intros [e [He [H|H]]]; exists e; split; auto; subst; cbn; auto.
Qed.

Lemma same_set_items es es' : same_set es es' -> same_set (items_of es) (items_of es').
Proof.
  intros Hs x. rewrite !items_of_In. split; intros [e [He H]]; exists e; split; auto; apply Hs; exact He.
Qed.

Lemma fun_ids_same_set es es' : same_set es es' -> fun_ids es -> fun_ids es'.
Proof.
  intros Hs Hf a b Ha Hb. apply (same_set_items _ _ Hs) in Ha. apply (same_set_items _ _ Hs) in Hb. apply Hf; assumption.
Qed.

Lemma children_In rel x es c :
  In c (children rel x es) <->
  exists e, In e es /\ snd e = c /\ same_item (fst e) x = true /\ rel (fst e) (snd e) = true.
Proof.
  unfold children. rewrite in_map_iff. split.
  - intros [e [Hc Hf]]. apply filter_In in Hf as [Hin Hb]. apply andb_prop in Hb as [H1 H2]. exists e. auto.
  - intros [e [Hin [Hc [H1 H2]]]]. exists e. split; [exact Hc|]. apply filter_In. split; [exact Hin|]. rewrite H1, H2. reflexivity.
Qed.

Lemma children_same_set rel x es es' : same_set es es' -> same_set (children rel x es) (children rel x es').
Proof.
  intros Hs c. rewrite !children_In. split; intros [e [He H]]; exists e; split; auto; apply Hs; exact He.
Qed.

(* [pick] looks a child up by its crate-local number [lid] (`id == &f.item.id`, node.rs:168, :191),
   whereas an item is identified by its [gid].  Among the children of one item the two agree, because
   [has_field]/[has_variant] hold only inside one crate: that carries [pick], and with it the registry,
   across a reordering of the edges and across a renumbering per crate. *)
Lemma pick_ext ids cs cs' :
  (forall a b, In a cs -> In b cs -> lid a = lid b -> a = b) ->
  same_set cs cs' -> pick ids cs = pick ids cs'.
Proof.
  intros Hu Hs. unfold pick. apply filter_map_ext. intros id. apply find_same_set; [|exact Hs].
  intros a b Ha Hb Hpa Hpb. apply andb_prop in Hpa as [_ Hpa]. apply andb_prop in Hpb as [_ Hpb].
  apply N.eqb_eq in Hpa. apply N.eqb_eq in Hpb. apply Hu; congruence.
Qed.

Definition rel_same_crate (rel : item -> item -> bool) : Prop :=
  forall x c, rel x c = true -> crate_of x = crate_of c.

Lemma has_field_same_crate : rel_same_crate has_field.
Proof. intros x c H. unfold has_field in H. rewrite !andb_true_iff in H. apply String.eqb_eq, H. Qed.
Lemma has_variant_same_crate : rel_same_crate has_variant.
Proof. intros x c H. unfold has_variant in H. rewrite !andb_true_iff in H. apply String.eqb_eq, H. Qed.

Lemma same_item_iff a b : same_item a b = true <-> it_id a = it_id b.
Proof. symmetry. apply reflect_iff, gid_eqb_spec. Qed.

Lemma children_crate rel x es c : rel_same_crate rel -> In c (children rel x es) -> crate_of c = crate_of x.
Proof.
  intros Hr Hc. apply children_In in Hc as [e [_ [<- [H1 H2]]]].
  apply Hr in H2. apply same_item_iff in H1. unfold crate_of in *. congruence.
Qed.

Lemma children_items rel x es c : In c (children rel x es) -> In c (items_of es).
Proof.
  intros Hc. apply children_In in Hc as [e [He [Hs _]]]. apply items_of_In. exists e. split; [exact He | right; congruence].
Qed.

Lemma children_uniq rel x es : rel_same_crate rel -> fun_ids es ->
  forall a b, In a (children rel x es) -> In b (children rel x es) -> lid a = lid b -> a = b.
Proof.
  intros Hr Hf a b Ha Hb Hl. apply Hf; try (eapply children_items; eassumption).
  apply same_item_iff. pose proof (children_crate _ _ _ _ Hr Ha) as Ca. pose proof (children_crate _ _ _ _ Hr Hb) as Cb.
  unfold crate_of, lid in *. destruct (it_id a), (it_id b). cbn in *. congruence.
Qed.

Section Reorder.
  Variables es es' : edges.
  Hypothesis Hfun : fun_ids es.
  Hypothesis Hset : same_set es es'.

  Lemma pick_children_ext rel ids x : rel_same_crate rel -> pick ids (children rel x es) = pick ids (children rel x es').
  Proof. intros Hr. apply pick_ext; [apply children_uniq; assumption | apply children_same_set; exact Hset]. Qed.

  Lemma fields_ext x : fields x es = fields x es'.
  Proof. exact (pick_children_ext _ _ _ has_field_same_crate). Qed.
  Lemma variants_ext x : variants x es = variants x es'.
  Proof. exact (pick_children_ext _ _ _ has_variant_same_crate). Qed.
  Lemma variant_fmt_ext v : variant_fmt v es = variant_fmt v es'.
  Proof. unfold variant_fmt, plain_fmts, named_fmts. rewrite fields_ext. reflexivity. Qed.
  Lemma enum_entries_ext vs : forall i, enum_entries i vs es = enum_entries i vs es'.
  Proof. induction vs as [|v vs IH]; intros i; cbn [enum_entries]; [reflexivity|]. rewrite variant_fmt_ext, IH. reflexivity. Qed.

  Lemma container_of_ext x : container_of x es = container_of x es'.
  Proof.
    unfold container_of, named_fmts, plain_fmts. rewrite fields_ext, variants_ext, enum_entries_ext.
    destruct (it_name x); [|reflexivity]. destruct (it_kind x); try reflexivity.
    apply same_set_match, children_same_set, Hset.
  Qed.

  Lemma containers_same_set : same_set (containers es) (containers es').
  Proof.
    intros kc. rewrite !containers_In, !derived_containers_In, !range_containers_In.
    unfold same_set in Hset. setoid_rewrite container_of_ext. setoid_rewrite Hset. reflexivity.
  Qed.

  (* The registry does not depend on the order (or multiplicity) of the edges, provided ids name one
     item each and no two different containers carry the same name. *)
  Theorem format_set_invariant : unambiguous (containers es) -> format es = format es'.
  Proof. intros Hu. unfold format. apply build_set_invariant; [apply containers_same_set | exact Hu]. Qed.
End Reorder.

Theorem format_perm_invariant es es' :
  Permutation es es' -> fun_ids es -> unambiguous (containers es) -> format es = format es'.
Proof.
  intros HP Hf Hu. apply format_set_invariant; [exact Hf | | exact Hu].
  intros e. split; apply Permutation_in; [exact HP | apply Permutation_sym; exact HP].
Qed.

Section Renumber.
  Variable rho : renum.
  Hypothesis rho_inj : forall c a b, rho c a = rho c b -> a = b.
  Notation rn := (rename_item rho).
  Notation rne := (rename_edges rho).

  Lemma rn_crate x : crate_of (rn x) = crate_of x.
  Proof. reflexivity. Qed.
  Lemma rn_lid x : lid (rn x) = rho (crate_of x) (lid x).
  Proof. reflexivity. Qed.

  Lemma rho_eqb c a b : N.eqb (rho c a) (rho c b) = N.eqb a b.
  Proof.
    destruct (N.eqb_spec a b) as [->|Hn]; [apply N.eqb_refl|].
    apply N.eqb_neq. intros H. apply Hn, (rho_inj c), H.
  Qed.

  Lemma rn_same_item a b : same_item (rn a) (rn b) = same_item a b.
  Proof.
    unfold same_item, gid_eqb. cbn [rename_item it_id fst snd].
    fold (crate_of a) (crate_of b) (lid a) (lid b).
    destruct (String.eqb_spec (crate_of a) (crate_of b)) as [->|_]; [|rewrite !andb_false_r; reflexivity].
    rewrite rho_eqb. reflexivity.
  Qed.

  Lemma existsb_rho c n ids : existsb (N.eqb (rho c n)) (map (rho c) ids) = existsb (N.eqb n) ids.
  Proof. induction ids as [|i ids IH]; cbn; [reflexivity|]. rewrite rho_eqb, IH. reflexivity. Qed.

  Lemma rn_field_ids x : field_ids (rn x) = map (rho (crate_of x)) (field_ids x).
  Proof. unfold field_ids. cbn [rename_item it_kind]. destruct (it_kind x); reflexivity. Qed.
  Lemma rn_variant_ids x : variant_ids (rn x) = map (rho (crate_of x)) (variant_ids x).
  Proof. unfold variant_ids. cbn [rename_item it_kind]. destruct (it_kind x); reflexivity. Qed.

  Lemma rn_has_field x f : has_field (rn x) (rn f) = has_field x f.
  Proof.
    unfold has_field. rewrite !rn_crate, rn_field_ids, rn_lid. cbn [rename_item it_skip it_name].
    destruct (String.eqb_spec (crate_of x) (crate_of f)) as [<-|_]; [|reflexivity]. rewrite existsb_rho. reflexivity.
  Qed.
  Lemma rn_has_variant x f : has_variant (rn x) (rn f) = has_variant x f.
  Proof.
    unfold has_variant. rewrite !rn_crate, rn_variant_ids, rn_lid. cbn [rename_item it_skip].
    destruct (String.eqb_spec (crate_of x) (crate_of f)) as [<-|_]; [|reflexivity]. rewrite existsb_rho. reflexivity.
  Qed.

  Lemma rn_children rel x es : (forall a b, rel (rn a) (rn b) = rel a b) ->
    children rel (rn x) (rne es) = map rn (children rel x es).
  Proof.
    intros Hr. unfold children, rename_edges. rewrite filter_of_map, !map_map. cbn [fst snd].
    f_equal. apply filter_ext. intros e. rewrite rn_same_item, Hr. reflexivity.
  Qed.

  Lemma rn_pick c ids cs : (forall y, In y cs -> crate_of y = c) ->
    pick (map (rho c) ids) (map rn cs) = map rn (pick ids cs).
  Proof.
    intros Hc. unfold pick. rewrite filter_map_map, <- filter_map_option_map.
    apply filter_map_ext. intros id. rewrite find_map. f_equal.
    apply find_ext_in. intros y Hy. cbn [rename_item it_skip]. rewrite rn_lid, (Hc y Hy), rho_eqb. reflexivity.
  Qed.

  Lemma rn_pick_children rel ids x es : rel_same_crate rel -> (forall a b, rel (rn a) (rn b) = rel a b) ->
    pick (map (rho (crate_of x)) ids) (children rel (rn x) (rne es)) = map rn (pick ids (children rel x es)).
  Proof. intros Hc Hr. rewrite (rn_children rel x es Hr). apply rn_pick. intros y. apply children_crate, Hc. Qed.

  Lemma rn_fields x es : fields (rn x) (rne es) = map rn (fields x es).
  Proof. unfold fields. rewrite rn_field_ids. exact (rn_pick_children _ _ _ _ has_field_same_crate rn_has_field). Qed.
  Lemma rn_variants x es : variants (rn x) (rne es) = map rn (variants x es).
  Proof. unfold variants. rewrite rn_variant_ids. exact (rn_pick_children _ _ _ _ has_variant_same_crate rn_has_variant). Qed.

  Lemma rn_variant_fmt v es : variant_fmt (rn v) (rne es) = variant_fmt v es.
  Proof.
    unfold variant_fmt, plain_fmts, named_fmts. rewrite rn_fields, !filter_map_map. cbn [rename_item it_wire it_kind it_fmt].
    destruct (it_wire v); [|reflexivity]. destruct (it_kind v); reflexivity.
  Qed.

  Lemma rn_enum_entries vs es : forall i, enum_entries i (map rn vs) (rne es) = enum_entries i vs es.
  Proof. induction vs as [|v vs IH]; intros i; cbn [map enum_entries]; [reflexivity|]. rewrite rn_variant_fmt, IH. reflexivity. Qed.

  Lemma rn_container_of x es : container_of (rn x) (rne es) = container_of x es.
  Proof.
    unfold container_of, named_fmts, plain_fmts. rewrite rn_fields, !filter_map_map, rn_variants, rn_enum_entries,
      (rn_children has_variant x es rn_has_variant).
    cbn [rename_item it_name it_kind it_wire it_fmt]. destruct (it_name x); [|reflexivity].
    destruct (it_kind x); cbn [rename_kind]; try reflexivity.
    destruct (children has_variant x es); reflexivity.
  Qed.

  Lemma rn_containers es : containers (rne es) = containers es.
  Proof.
    unfold containers, derived_containers. f_equal. f_equal.
    - unfold rename_edges at 2. rewrite flat_map_map. apply flat_map_ext. intros e. apply rn_container_of.
    - unfold range_containers, rename_edges. rewrite filter_map_map. apply filter_map_ext. intros e.
      cbn [fst snd]. rewrite rn_has_field. reflexivity.
  Qed.

  (* The registry does not depend on how rustdoc numbered the items: any renumbering that is
     injective within each crate, applied to every id and every reference to it, gives the same
     registry (no side condition on names: the order of the container relation is unaffected). *)
  Theorem format_renumber_invariant es : format (rne es) = format es.
  Proof. unfold format. rewrite rn_containers. reflexivity. Qed.

  Lemma items_of_rename es : items_of (rne es) = map rn (items_of es).
  Proof. unfold items_of, rename_edges. induction es as [|e es IH]; cbn; [reflexivity|]. rewrite IH. reflexivity. Qed.

  Lemma fun_ids_rename es : fun_ids es -> fun_ids (rne es).
  Proof.
    intros Hf a b Ha Hb Hs. rewrite items_of_rename in Ha, Hb.
    apply in_map_iff in Ha as [x [<- Hx]]. apply in_map_iff in Hb as [y [<- Hy]].
    rewrite rn_same_item in Hs. f_equal. apply Hf; assumption.
  Qed.

  Theorem format_pure es es' :
    fun_ids es -> unambiguous (containers es) -> Permutation (rne es) es' -> format es' = format es.
  Proof.
    intros Hf Hu HP. rewrite <- (format_renumber_invariant es). symmetry.
    apply format_perm_invariant; [exact HP | apply fun_ids_rename; exact Hf | rewrite rn_containers; exact Hu].
  Qed.
End Renumber.

Lemma pick_In ids cs c : In c (pick ids cs) -> In c cs /\ it_skip c = false /\ In (lid c) ids.
Proof.
  unfold pick. rewrite filter_map_In. intros [id [Hid Hf]]. apply find_some in Hf as [Hc Hp].
  apply andb_prop in Hp as [Hs Hl]. apply N.eqb_eq in Hl. subst id.
  split; [exact Hc|]. split; [|exact Hid]. destruct (it_skip c); [discriminate | reflexivity].
Qed.

Lemma pick_children_In rel ids x es c : In c (pick ids (children rel x es)) ->
  exists e, In e es /\ snd e = c /\ rel (fst e) (snd e) = true.
Proof. intros H. apply pick_In in H as [H _]. apply children_In in H as [e [He [Hs [_ Hr]]]]. exists e. auto. Qed.

(* the members of [variants]/[fields] appear in declaration order: their ids are the declared
   ids, filtered by presence *)
Lemma pick_decl_order ids cs :
  map lid (pick ids cs) = filter (fun id => existsb (fun c => negb (it_skip c) && N.eqb id (lid c)) cs) ids.
Proof.
  unfold pick. induction ids as [|id ids IH]; cbn [filter_map filter map]; [reflexivity|]. rewrite existsb_find.
  destruct (find _ cs) as [c|] eqn:E; [|exact IH]. cbn [map]. rewrite IH. f_equal.
  apply find_some in E as [_ Hp]. apply andb_prop in Hp as [_ Hl]. apply N.eqb_eq in Hl. congruence.
Qed.

(* the payloads of an enum container are the formats of [variants] in order *)
Lemma enum_entries_payload vs es : forall i,
  map snd (enum_entries i vs es) = filter_map (fun v => variant_fmt v es) vs.
Proof.
  induction vs as [|v vs IH]; intros i; cbn [enum_entries filter_map]; [reflexivity|].
  destruct (variant_fmt v es); cbn [map]; rewrite IH; reflexivity.
Qed.

Lemma enum_entries_keys vs es : (forall v, In v vs -> variant_fmt v es <> None) ->
  forall i, keys_from i (enum_entries i vs es) = true.
Proof.
  induction vs as [|v vs IH]; intros H i; cbn [enum_entries]; [reflexivity|].
  destruct (variant_fmt v es) as [nv|] eqn:E; [|exfalso; apply (H v (or_introl eq_refl)); exact E].
  cbn [keys_from]. rewrite N.eqb_refl. cbn. apply IH. intros w Hw. apply H. right. exact Hw.
Qed.

Definition wf_variants (es : edges) : Prop :=
  forall e, In e es -> has_variant (fst e) (snd e) = true ->
    match it_kind (snd e), it_wire (snd e) with
    | (KVariantPlain | KVariantTuple _ | KVariantStruct _), Some _ => True
    | _, _ => False
    end.
Definition wf_ranges (es : edges) : Prop :=
  forall e, In e es -> match it_range (snd e) with Some (CStruct _) | None => True | Some _ => False end.

(* The other two clauses of [wf_edges] concern the agreement with the code: with distinct declared ids the
   position of a member in [fields]/[variants] is the index formatter.rs computes (`position`, :126) and sorts
   by; [FTodo] stands for a panic of make_format, after which the code returns no registry. *)
Lemma wf_edges_spec es : wf_edges es = true -> fun_ids es /\ wf_variants es /\ wf_ranges es.
Proof.
  unfold wf_edges. rewrite !andb_true_iff, !forallb_forall. intros [[[[Hi _] Hv] _] Hr]. split; [|split].
  - intros a b Ha Hb Hs. specialize (Hi a Ha). rewrite forallb_forall in Hi. specialize (Hi b Hb).
    rewrite Hs in Hi. apply item_eqb_shallow_eq. exact Hi.
  - intros e He Hh. specialize (Hv e He). rewrite Hh in Hv. cbn in Hv.
    destruct (it_kind (snd e)), (it_wire (snd e)); try discriminate; exact I.
  - intros e He. specialize (Hr e He). destruct (it_range (snd e)) as [[]|]; try discriminate; exact I.
Qed.

Lemma variant_fmt_some es e : wf_variants es -> In e es -> has_variant (fst e) (snd e) = true ->
  variant_fmt (snd e) es <> None.
Proof.
  intros Hwf He Hv. specialize (Hwf e He Hv). unfold variant_fmt.
  destruct (it_kind (snd e)), (it_wire (snd e)); try contradiction; discriminate.
Qed.

Definition enum_ok (c : container) : Prop := match c with CEnum vs => keys_from 0 vs = true | _ => True end.

Lemma containers_enum_ok es : wf_variants es -> wf_ranges es -> forall kc, In kc (containers es) -> enum_ok (snd kc).
Proof.
  intros Hv Hr [k c]. rewrite containers_In, derived_containers_In, range_containers_In. cbn [snd].
  intros [[[e [He Hk]] | [e [c' [He [_ [Hc E]]]]]] | E].
  - apply container_of_inv in Hk as [_ Hk]. destruct (it_kind (fst e)); try contradiction.
    + subst c. exact I.
    + subst c. destruct (named_fmts (fst e) es); exact I.
    + subst c. destruct (plain_fmts (fst e) es) as [|a [|b l]]; exact I.
    + destruct Hk as [_ ->]. apply enum_entries_keys. intros v Hin.
      apply pick_children_In in Hin as [e' [He' [<- Hhv]]]. exact (variant_fmt_some es e' Hv He' Hhv).
  - specialize (Hr e He). rewrite Hc in Hr. inversion E; subst. destruct c'; try contradiction; exact I.
  - inversion E. exact I.
Qed.

Lemma wf_variants_contiguous es : wf_variants es -> wf_ranges es -> contiguousb (format es) = true.
Proof.
  intros Hv Hr. apply forallb_forall. intros kc Hin. apply build_In in Hin.
  pose proof (containers_enum_ok es Hv Hr kc Hin) as H. destruct (snd kc); try reflexivity. exact H.
Qed.

Theorem format_contiguous es : wf_edges es = true -> contiguousb (format es) = true.
Proof. intros Hwf. apply wf_edges_spec in Hwf as [_ [Hv Hr]]. exact (wf_variants_contiguous es Hv Hr). Qed.

Definition defines (es : edges) (s : string) : Prop := exists c, In (s, c) (derived_containers es).

Definition resolved (es : edges) : Prop :=
  forall e, In e es -> has_field (fst e) (snd e) = true ->
  forall s, In s (names_of_item (snd e)) -> defines es s.

Lemma definesb_defines es s : definesb es s = true -> defines es s.
Proof.
  unfold definesb. intros H. apply existsb_exists in H as [[k c] [Hk H]].
  apply String.eqb_eq in H. cbn in H. subst k. exists c. exact Hk.
Qed.

Lemma resolvedb_resolved es : resolvedb es = true -> resolved es.
Proof.
  unfold resolvedb. intros H e He Hh s Hs. rewrite forallb_forall in H. specialize (H e He). rewrite Hh in H. cbn in H.
  rewrite forallb_forall in H. apply definesb_defines. apply H. exact Hs.
Qed.

Lemma defines_has_key es s : defines es s -> has_key s (format es) = true.
Proof. intros [c Hc]. apply (build_has_key _ s c), containers_In. left. exact Hc. Qed.

Lemma plain_fmts_names x es s : In s (flat_map fmt_names (plain_fmts x es)) ->
  exists f, In f (fields x es) /\ In s (names_of_item f).
Proof.
  unfold plain_fmts. rewrite in_flat_map. intros [t [Ht Hs]]. apply filter_map_In in Ht as [f [Hf Hfmt]].
  exists f. split; [exact Hf|]. unfold names_of_item. rewrite Hfmt. apply in_or_app. left. exact Hs.
Qed.
Lemma named_fmts_names x es s : In s (flat_map (fun nf : string * fmt => fmt_names (snd nf)) (named_fmts x es)) ->
  exists f, In f (fields x es) /\ In s (names_of_item f).
Proof.
  unfold named_fmts. rewrite in_flat_map. intros [[n t] [Ht Hs]]. apply filter_map_In in Ht as [f [Hf Hfmt]].
  exists f. split; [exact Hf|]. unfold names_of_item. destruct (it_wire f); [|discriminate].
  destruct (it_fmt f); [|discriminate]. inversion Hfmt; subst. apply in_or_app. left. exact Hs.
Qed.

Lemma variant_fmt_names v es n vf s : variant_fmt v es = Some (n, vf) -> In s (vfmt_names vf) ->
  exists f, In f (fields v es) /\ In s (names_of_item f).
Proof.
  unfold variant_fmt. destruct (it_wire v); [|discriminate]. destruct (it_kind v); try discriminate; intros H Hs; inversion H; subst.
  - contradiction.
  - apply plain_fmts_names. destruct (plain_fmts v es) as [|a [|b l]]; cbn in *; [contradiction | rewrite app_nil_r; exact Hs | exact Hs].
  - cbn in Hs. apply named_fmts_names. exact Hs.
Qed.

(* every type name in a derived container comes from a field that is present under some item *)
Lemma container_of_names x es k c s : In (k, c) (container_of x es) -> In s (container_names c) ->
  exists y f, In f (fields y es) /\ In s (names_of_item f).
Proof.
  intros H Hs. apply container_of_inv in H as [_ H]. destruct (it_kind x); try contradiction.
  - subst c. contradiction.
  - subst c. exists x. apply named_fmts_names. destruct (named_fmts x es); [contradiction | exact Hs].
  - subst c. exists x. apply plain_fmts_names.
    destruct (plain_fmts x es) as [|a [|b l]]; cbn in *; [contradiction | rewrite app_nil_r; exact Hs | exact Hs].
  - destruct H as [_ ->]. cbn [container_names] in Hs.
    (* the names of the entries are those of their payloads, the formats of [variants x es] *)
    rewrite <- (flat_map_map (fun nv => vfmt_names (snd nv)) snd), enum_entries_payload, in_flat_map in Hs.
    destruct Hs as [[n vf] [H Hs]]. apply filter_map_In in H as [v [_ Hv]].
    destruct (variant_fmt_names _ _ _ _ _ Hv Hs) as [f Hf]. exists v, f. exact Hf.
Qed.

Lemma derived_names_defined es : resolved es ->
  forall k c s, In (k, c) (derived_containers es) -> In s (container_names c) -> defines es s.
Proof.
  intros Hres k c s Hin Hs. apply derived_containers_In in Hin as [[e [He Hc]] | Hin].
  - destruct (container_of_names _ _ _ _ _ Hc Hs) as [y [f [Hf Hn]]].
    apply pick_children_In in Hf as [e1 [He1 [<- Hh]]]. exact (Hres e1 He1 Hh s Hn).
  - apply range_containers_In in Hin as [e [c' [He [Hh [Hr E]]]]]. inversion E; subst c'.
    apply (Hres e He Hh). unfold names_of_item. rewrite Hr. apply in_or_app. right. exact Hs.
Qed.

(* The registry is closed, apart from the reference to [Effect] made by the fixed [Request]
   container, whenever every type name used by a present field names an item that has a container. *)
Theorem format_closed es : resolved es -> closed_mod_requestb (format es) = true.
Proof.
  intros Hres. apply forallb_forall. intros [k c] Hin. apply build_In, containers_In in Hin as [Hin | E]; cbn [fst snd].
  - apply orb_true_iff. right. apply forallb_forall. intros s Hs.
    apply defines_has_key. exact (derived_names_defined es Hres k c s Hin Hs).
  - inversion E. reflexivity.
Qed.

(* With an [Effect] type defined, the reference made by the fixed [Request] container resolves as well. *)
Theorem format_closed_full es : resolved es -> defines es "Effect" -> closedb (format es) = true.
Proof.
  intros Hres Heff. apply forallb_forall. intros [k c] Hin. apply forallb_forall. intros s Hs. cbn [snd] in Hs.
  apply defines_has_key. apply build_In, containers_In in Hin as [Hin | E].
  - exact (derived_names_defined es Hres k c s Hin Hs).
  - inversion E; subst c. destruct Hs as [<-|[]]. exact Heff.
Qed.
