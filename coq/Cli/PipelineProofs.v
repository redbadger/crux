(* What [Pipeline.fixture_ok] = true means for a regenerated description, and closedness of the
   registry that the Filter's closure followed by the Formatter returns. *)
From Coq Require Import List String NArith Bool Permutation.
From Crux Require Import Cli.Format Cli.FormatProofs Cli.Closure Cli.ClosureProofs Cli.Pipeline.
Import ListNotations.
Open Scope string_scope.
Open Scope list_scope.

Lemma closure_matches_sound r es : closure_matches r es = true ->
  exists G, r = Some G /\ forall e, In e G <-> In e (map gpair es).
Proof.
  unfold closure_matches. destruct r as [G|]; [|discriminate]. intros H. exists G. split; [reflexivity|].
  exact (same_edges_sound gid_eqb gid_eqb_spec _ _ H).
Qed.

Theorem fixture_ok_sound d es reg crates : fixture_ok d es reg crates = true ->
  (* the Formatter model reproduces the registry the code returned *)
  format es = reg
  (* which is closed (up to the fixed Request container) and has contiguous variant indices *)
  /\ closed_mod_requestb reg = true
  /\ (definesb es "Effect" = true -> closedb reg = true)
  /\ contiguousb reg = true
  (* and is what every consistent renumbering of the ids and every order of the edges gives *)
  /\ (forall rho es', (forall c a b, rho c a = rho c b -> a = b) ->
        Permutation (rename_edges rho es) es' -> format es' = reg)
  (* the edge relation the code derived is the least fixpoint of the edge rules, so every order of
     the facts and every order of visiting the crates derives the same set *)
  /\ (forall F fuel G, facts_equiv (gfacts d) F -> closure gid_eqb fuel F [] = Some G ->
        forall e, In e G <-> In e (map gpair es))
  /\ (forall order fuel G, Permutation crates order ->
        run_crates gid_eqb fuel (map (fun c => gfacts (crate_dump d c)) order) = Some G ->
        forall e, In e G <-> In e (map gpair es)).
Proof.
  (* the conjunct for [rev crates] is not used: [run_crates_order_free] covers every order *)
  unfold fixture_ok. rewrite !andb_true_iff. intros [[[[[[Hwf Hun] Hres] Hreg] Hc1] Hc2] _].
  apply registry_eqb_eq in Hreg. apply resolvedb_resolved in Hres. apply unambiguousb_sound in Hun.
  apply closure_matches_sound in Hc1 as [G1 [E1 HG1]]. apply closure_matches_sound in Hc2 as [G2 [E2 HG2]].
  subst reg. split; [reflexivity|]. split; [apply format_closed; exact Hres|].
  split; [intros He; apply format_closed_full; [exact Hres | apply definesb_defines; exact He]|].
  split; [apply format_contiguous; exact Hwf|].
  split; [intros rho es' Hinj HP; apply (format_pure rho Hinj); [apply wf_edges_spec; exact Hwf | exact Hun | exact HP]|].
  split.
  - intros F fuel G HF HG e. rewrite <- (HG1 e). symmetry.
    exact (closure_order_free gid_eqb gid_eqb_spec _ _ _ _ _ _ _ _ HF (fun x => iff_refl _) E1 HG e).
  - intros order fuel G HP HG e. rewrite <- (HG2 e). symmetry.
    exact (run_crates_order_free gid_eqb gid_eqb_spec _ _ _ _ _ _ (Permutation_map _ HP) E2 HG e).
Qed.

(* [fixture_ok] with the closures evaluated semi-naively: the same boolean, at less cost on the bundled
   descriptions of Properties/C20.v *)
Definition fixture_ok_delta (d : dump) (es : edges) (reg : registry) (crates : list string) : bool :=
  wf_edges es && unambiguousb (containers es) && resolvedb es
  && registry_eqb (format es) reg
  && closure_matches (closure_delta gid_eqb (fuel_for d) (gfacts d) []) es
  && closure_matches (run_crates_delta gid_eqb (fuel_for d) (map (fun c => gfacts (crate_dump d c)) crates)) es
  && closure_matches (run_crates_delta gid_eqb (fuel_for d) (map (fun c => gfacts (crate_dump d c)) (rev crates))) es.

Lemma fixture_ok_delta_eq d es reg crates : fixture_ok_delta d es reg crates = fixture_ok d es reg crates.
Proof.
  unfold fixture_ok_delta. rewrite (closure_delta_eq gid_eqb gid_eqb_spec), !(run_crates_delta_eq gid_eqb gid_eqb_spec).
  reflexivity.
Qed.

(* an id names one item of the table; FormatProofs.fun_ids says the same of the items on an edge list *)
Definition tbl_fun (tbl : list item) : Prop :=
  forall x y, In x tbl -> In y tbl -> it_id x = it_id y -> x = y.

(* once reached, [t] becomes the source of an edge that gives it a container: a struct always (through a field,
   or by the leaf rules if it has none), an enum only through a variant that is present *)
Definition productive (d : dump) (t : item) : Prop :=
  is_struct t = true
  \/ (is_enum_item t = true /\ exists v, In (t, v) (d_variant d) /\ In v (d_items d) /\ has_variant t v = true).

(* for every REACHED field and every type name its format uses: it is the Range of a direct Range field,
   or the name of a local type the field points to, or (remote-crate hypothesis) the name of a root of
   one of the crates visited - e.g. the operation type a dependency declares *)
Definition followed (d : dump) (G : list (gid * gid)) : Prop :=
  forall f s, In f (d_items d) -> (exists a, In (a, it_id f) G) -> In s (names_of_item f) ->
    (s = "Range" /\ exists c, it_range f = Some c)
    \/ (exists t, In t (d_items d) /\ In (f, t) (d_type d) /\ it_name t = Some s /\ productive d t)
    \/ (exists t, In t (d_items d) /\ In t (d_root d) /\ it_name t = Some s /\ productive d t).

(* a premise of C20_closed (Properties/C20.v) only; [pipeline_closed] does not need it *)
Definition fields_in_table (d : dump) : Prop :=
  forall e, In e (d_field d) -> In (fst e) (d_items d) /\ In (snd e) (d_items d).

Lemma get_in tbl x : tbl_fun tbl -> In x tbl -> get tbl (it_id x) = x.
Proof.
  intros Hf Hx. unfold get. destruct (find (fun y => gid_eqb (it_id y) (it_id x)) tbl) as [y|] eqn:E.
  - apply find_some in E as [Hy He]. destruct (gid_eqb_spec (it_id y) (it_id x)); [|discriminate]. apply Hf; assumption.
  - pose proof (find_none _ _ E x Hx) as H. cbn in H. destruct (gid_eqb_spec (it_id x) (it_id x)); congruence.
Qed.

(* [dummy_item] uses no type name, so an item that does was found in the table *)
Lemma get_named tbl g s : In s (names_of_item (get tbl g)) -> In (get tbl g) tbl /\ it_id (get tbl g) = g.
Proof.
  unfold get. destruct (find (fun y => gid_eqb (it_id y) g) tbl) as [y|] eqn:E.
  - intros _. apply find_some in E as [Hy He]. destruct (gid_eqb_spec (it_id y) g); [auto | discriminate].
  - cbn. intros [].
Qed.

Lemma edges_of_In tbl G a b : In (a, b) G -> In (get tbl a, get tbl b) (edges_of tbl G).
Proof. intros H. unfold edges_of. apply in_map_iff. exists (a, b). split; [reflexivity | exact H]. Qed.

Lemma container_of_struct t es s : it_name t = Some s -> is_struct t = true -> exists c, In (s, c) (container_of t es).
Proof.
  intros Hn Hs. unfold container_of. rewrite Hn. unfold is_struct in Hs.
  destruct (it_kind t); try discriminate; eexists; left; reflexivity.
Qed.

Lemma container_of_enum t es s v : it_name t = Some s -> is_enum_item t = true -> In v (children has_variant t es) ->
  In (s, CEnum (enum_entries 0 (variants t es) es)) (container_of t es).
Proof.
  intros Hn He Hv. unfold container_of. rewrite Hn. unfold is_enum_item in He. destruct (it_kind t); try discriminate.
  destruct (children has_variant t es); [contradiction | left; reflexivity].
Qed.

Lemma source_has_container tbl G t y s k : tbl_fun tbl -> In t tbl -> In (it_id t, y) G ->
  In (s, k) (container_of t (edges_of tbl G)) -> defines (edges_of tbl G) s.
Proof.
  intros Htbl Ht Hty Hk. exists k. apply derived_containers_In. left.
  exists (get tbl (it_id t), get tbl y). split; [apply edges_of_In; exact Hty|]. cbn [fst]. rewrite (get_in _ _ Htbl Ht). exact Hk.
Qed.

(* a productive type that is a root or the target of an edge is the source of an edge, hence defined *)
Lemma source_defined d fuel G t s :
  tbl_fun (d_items d) ->
  closure gid_eqb fuel (gfacts d) [] = Some G ->
  In t (d_items d) -> it_name t = Some s -> productive d t ->
  (In t (d_root d) \/ exists b, In (b, it_id t) G) ->
  defines (edges_of (d_items d) G) s.
Proof.
  intros Htbl Hc Htin Hname Hprod Hreach.
  assert (Hspec := closure_spec gid_eqb gid_eqb_spec _ _ _ _ Hc).
  assert (Hreach' : In (it_id t) (f_root (gfacts d)) \/ exists a, derivable (gfacts d) [] (a, it_id t)).
  { destruct Hreach as [Hr | [b Hb]]; [left; apply in_map; exact Hr | right; exists b; apply Hspec; exact Hb]. }
  destruct Hprod as [Hst | [Hen [v [Hv [Hvin Hhv]]]]].
  - destruct (container_of_struct t (edges_of (d_items d) G) s Hname Hst) as [k Hk].
    destruct (existsb (fun e => same_item (fst e) t) (d_field d)) eqn:Ex.
    + apply existsb_exists in Ex as [[t' c] [Hin Hsame]]. apply same_item_iff in Hsame. cbn [fst] in Hsame.
      apply (source_has_container _ _ t (it_id c) s k Htbl Htin); [|exact Hk].
      apply Hspec, reached_out; [exact Hreach' | left; rewrite <- Hsame; exact (in_map gpair _ _ Hin)].
    + apply (source_has_container _ _ t (it_id t) s k Htbl Htin); [|exact Hk].
      apply Hspec, reached_leaf; [exact Hreach'|]. apply in_map, filter_In. split; [exact Htin|].
      unfold is_leaf. rewrite Hst, Ex. reflexivity.
  - assert (Htv : In (it_id t, it_id v) G)
      by (apply Hspec, reached_out; [exact Hreach' | right; exact (in_map gpair _ _ Hv)]).
    eapply (source_has_container _ _ t (it_id v) s _ Htbl Htin Htv), container_of_enum with (v := v); try assumption.
    apply children_In. exists (t, v). cbn [fst snd]. split.
    { apply edges_of_In with (tbl := d_items d) in Htv. rewrite !get_in in Htv by assumption. exact Htv. }
    split; [reflexivity|]. split; [apply same_item_iff; reflexivity | exact Hhv].
Qed.

(* "Local types are followed": the edge(field, type) rule puts the type of every reached field among
   the edge targets, the field/variant/leaf rules then make it the source of an edge, and the
   Formatter gives every such source a container.  Hence the registry [pipeline] returns is closed
   (up to Request -> Effect) under [followed].  Its last case: filter.rs has no edge rule from a field to
   a type of another crate; the hypothesis asks that the rules of its own crate make it a root.  Of the
   known classes (Pipeline.v) [followed] excludes renamed_type_reference, childless_enum_undefined (not
   productive) and nested_range_undefined; request_without_effect is set aside by [closed_mod_requestb]. *)
Theorem pipeline_closed d fuel G :
  tbl_fun (d_items d) ->
  closure gid_eqb fuel (gfacts d) [] = Some G -> followed d G ->
  closed_mod_requestb (format (edges_of (d_items d) G)) = true.
Proof.
  intros Htbl Hc Hfol. apply format_closed.
  assert (Hspec := closure_spec gid_eqb gid_eqb_spec _ _ _ _ Hc).
  intros e He Hhf s Hs.
  unfold edges_of in He. apply in_map_iff in He as [[a b] [<- Hab]]. cbn [fst snd] in *.
  destruct (get_named _ _ _ Hs) as [Hfin Hfid].
  assert (Hreach : exists a0, In (a0, it_id (get (d_items d) b)) G) by (exists a; rewrite Hfid; exact Hab).
  destruct (Hfol _ _ Hfin Hreach Hs) as [[-> [c Hrc]] | [[t [Htin [Hty [Hname Hprod]]]] | [t [Htin [Hrt [Hname Hprod]]]]]].
  - exists c. apply derived_containers_In. right. apply range_containers_In.
    exists (get (d_items d) a, get (d_items d) b), c. auto using edges_of_In.
  - eapply source_defined; try eassumption. right. exists b.
    apply Hspec. eapply d_step; [apply Hspec; exact Hab|]. apply all_rels_In. right. right.
    apply (in_map gpair) in Hty. unfold gpair in Hty at 1. cbn [fst snd] in Hty. rewrite Hfid in Hty. exact Hty.
  - eapply source_defined; try eassumption. left. exact Hrt.
Qed.
