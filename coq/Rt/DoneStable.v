(* C07, "done is stable" on the runtime model: a command that is quiet - not aborted, nothing in its ready queue,
   nothing waiting to be spawned - is not changed at all by run_until_settled; so once is_done() has answered true
   (no output, no task, and by settle_quiescent both queues empty) every further is_done() / effects() / events() finds
   exactly the same heap and gives the same answers, until something is spawned on the command or one of its wakers
   fires.  For every heap and fuel >= 2 (>= 3 for a host's poll_next). *)
From Coq Require Import List Arith Bool Lia.
From Crux Require Import Rt.Lang Rt.Rt Rt.Tables Rt.Frame.
Import ListNotations.

Theorem settle_of_a_quiet_command_changes_nothing : forall f x H,
  x < length (cmds H) -> was_aborted x H = false -> c_ready (gcmd x H) = [] -> c_spawnq (gcmd x H) = [] ->
  settle (S (S f)) x H = Some H.
Proof.
  intros f x H L A Er Es. unfold settle. cbn [funs]. rewrite rsettle_step, A.
  cbn [funs step_funs rloop]. unfold loop_body. rewrite Es. cbn [fold_left].
  assert (Id : ucmd x (set_spawnq []) H = H).
  { apply ucmd_id; [exact L|]. destruct (gcmd x H) eqn:G; unfold set_spawnq; cbn in *. subst. reflexivity. }
  rewrite Id. rewrite Er. reflexivity.
Qed.

(* is_done(): settle, then look *)
Definition is_done_model (fuel x : nat) (H : heap) : option (bool * heap) :=
  match settle fuel x H with
  | None => None
  | Some H1 => let c := gcmd x H1 in
               Some (match c_eff c, c_evs c with [], [] => Nat.eqb (c_len c) 0 | _, _ => false end, H1)
  end.
Lemma was_aborted_set_atomic x a H : was_aborted x (ucmd x (set_atomic a) H) = was_aborted x H.
Proof. unfold was_aborted. rewrite gcmd_ucmd_same. destruct (gcmd x H); reflexivity. Qed.
(* hosted: Stream::poll_next of a quiet command with no output and no task registers the host's waker and answers
   Ready(None) at once *)
Theorem done_command_reports_done_to_its_host : forall f x w H,
  x < length (cmds H) -> was_aborted x H = false -> c_ready (gcmd x H) = [] -> c_spawnq (gcmd x H) = [] ->
  c_eff (gcmd x H) = [] -> c_evs (gcmd x H) = [] -> c_len (gcmd x H) = 0 ->
  poll_next (S (S (S f))) x w H = Some (PNDone, ucmd x (set_atomic (Some w)) H).
Proof.
  intros f x w H L A Er Es Ef Ev El.
  assert (G : gcmd x (ucmd x (set_atomic (Some w)) H) = set_atomic (Some w) (gcmd x H)) by apply gcmd_ucmd_same.
  assert (S0 : settle (S (S f)) x (ucmd x (set_atomic (Some w)) H) = Some (ucmd x (set_atomic (Some w)) H)).
  { apply settle_of_a_quiet_command_changes_nothing; rewrite ?was_aborted_set_atomic, ?G; try assumption.
    eapply Nat.lt_le_trans; [exact L | apply length_ucmd]. }
  unfold poll_next, settle in *. cbn [funs step_funs rpoll_next] in *. unfold poll_next_body.
  rewrite !S0, G. cbn [set_atomic c_evs c_eff c_len]. rewrite Ev, Ef, El. reflexivity.
Qed.
