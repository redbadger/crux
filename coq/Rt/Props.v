(* No step of the runtime touches abort bookkeeping or the identity of a command (Rmeta, an instance of the frame
   principle of Frame.v); what run_until_settled leaves behind. *)
From Coq Require Import List Arith Bool Lia.
From Crux Require Import Rt.Lang Rt.Rt Rt.Tables Rt.Frame.
Import ListNotations.

Definition Rmeta (H H' : heap) : Prop :=
  (exists l, aborted H' = l ++ aborted H) /\
  length (cmds H) <= length (cmds H') /\
  forall c, c < length (cmds H) -> meta (gcmd c H') = meta (gcmd c H).

Lemma Rmeta_refl H : Rmeta H H.
Proof. repeat split; auto. exists []. reflexivity. Qed.
Lemma Rmeta_trans a b c : Rmeta a b -> Rmeta b c -> Rmeta a c.
Proof.
  intros ([l1 A1] & A2 & A3) ([l2 B1] & B2 & B3). repeat split; try lia.
  - exists (l2 ++ l1). rewrite B1, A1. apply app_assoc.
  - intros x Hx. rewrite B3 by lia. apply A3; exact Hx.
Qed.
Lemma Rmeta_same_cmds H H' : aborted H' = aborted H -> cmds H' = cmds H -> Rmeta H H'.
Proof. intros A B. unfold Rmeta, gcmd. rewrite A, B. repeat split; auto. exists []. reflexivity. Qed.

Lemma Rmeta_ucmd c f H : good f -> Rmeta H (ucmd c f H).
Proof.
  intros G. repeat split.
  - exists []. reflexivity.
  - apply length_ucmd.
  - intros x Hx. destruct (Nat.eq_dec c x) as [->|Hne].
    + rewrite gcmd_ucmd_same. apply (proj1 (G _)).
    + rewrite gcmd_ucmd_other by exact Hne. reflexivity.
Qed.
Lemma Rmeta_add_cmd c H : Rmeta H (mkH (chans H) (tfl H) (cmds H ++ [c]) (woken H) (xready H) (aborted H) (log H) (hout H)).
Proof.
  repeat split; simpl.
  - exists []. reflexivity.
  - rewrite app_length; simpl; lia.
  - intros x Hx. rewrite gcmd_add_cmd by exact Hx. reflexivity.
Qed.

Lemma Rmeta_add_aborted n H : Rmeta H (add_aborted n H).
Proof.
  unfold Rmeta, add_aborted, gcmd; simpl. repeat split; auto.
  exists [(n, length (cmds H))]. reflexivity.
Qed.

Lemma Rmeta_closed : frame_closed (fun _ => True) (fun _ => True) Rmeta.
Proof.
  apply good_frame_closed;
    first [ exact Rmeta_refl | exact Rmeta_trans | exact Rmeta_ucmd | exact Rmeta_add_aborted | exact Rmeta_add_cmd
          | intros; apply Rmeta_same_cmds; reflexivity ].
Qed.
Definition Rmeta_drop := fc_drop Rmeta_closed.
Definition frame_meta := closed_spec Rmeta_closed.

Lemma was_aborted_mono cid H H' : cid < length (cmds H) -> Rmeta H H' -> was_aborted cid H = true -> was_aborted cid H' = true.
Proof.
  intros Hc ([l A] & _ & M). unfold was_aborted. specialize (M cid Hc). unfold meta in M.
  inversion M as [[Mn Me]]. rewrite A, Mn, Me. intros E.
  apply existsb_exists in E as (x & Hx & Ex). apply existsb_exists. exists x. split; [exact Hx|].
  apply existsb_exists in Ex as (a & Ha & Ea). apply existsb_exists. exists a. split; [|exact Ea].
  apply in_or_app. right. exact Ha.
Qed.
Lemma was_aborted_false_back cid H H' : cid < length (cmds H) -> Rmeta H H' -> was_aborted cid H' = false -> was_aborted cid H = false.
Proof.
  intros Hc R E. destruct (was_aborted cid H) eqn:E0; [|reflexivity].
  rewrite (was_aborted_mono cid H H' Hc R E0) in E. discriminate.
Qed.

Theorem loop_quiescent : forall fuel cid H H',
  settle_loop fuel cid H = Some H' ->
  c_ready (gcmd cid H') = [] /\ c_spawnq (gcmd cid H') = [].
Proof.
  induction fuel as [|f IH]; intros cid H H' E; [discriminate|].
  unfold settle_loop in E. cbn [funs step_funs rloop] in E. unfold loop_body in E.
  set (H1 := fold_left (fun Hh t => ucmd cid (spawn_one t) Hh) (c_spawnq (gcmd cid H)) (ucmd cid (set_spawnq []) H)) in *.
  assert (Hq : c_spawnq (gcmd cid H1) = []).
  { (* the spawn queue is emptied first, and spawning a task does not refill it *)
    apply (R_fold (R := fun H H' => c_spawnq (gcmd cid H) = [] -> c_spawnq (gcmd cid H') = [])); auto.
    - intros t Hh Eq. rewrite gcmd_ucmd_same. unfold spawn_one, slab_insert. destruct (_ =? _); exact Eq.
    - rewrite gcmd_ucmd_same. reflexivity. }
  destruct (c_ready (gcmd cid H1)) as [|s rest] eqn:ER.
  - inversion E; subst H'. split; auto.
  - destruct (rdrain (funs f) cid H1) as [H2|] eqn:E2; [|discriminate].
    apply (IH cid H2 H'). exact E.
Qed.
(* run_until_settled of a command that is not aborted on entry returns only with its ready queue and
   spawn queue empty - whatever its tasks did meanwhile, aborting their own command included *)
Theorem settle_quiescent : forall fuel cid H H',
  was_aborted cid H = false -> settle fuel cid H = Some H' ->
  c_ready (gcmd cid H') = [] /\ c_spawnq (gcmd cid H') = [].
Proof.
  intros [|f] cid H H' Hab E; [discriminate|].
  unfold settle in E. cbn [funs] in E. rewrite rsettle_step, Hab in E.
  apply (loop_quiescent f cid H H'). exact E.
Qed.

(* run_until_settled of a command that is aborted on entry: after `self.tasks.clear()` only drop glue runs *)
Lemma aborted_settle_tail {R} (D : drop_closed R) f x H H' :
  was_aborted x H = true -> settle (S f) x H = Some H' -> R (ucmd x slab_clear H) H'.
Proof.
  intros A E. rewrite (settle_aborted_eq f x H A) in E. inversion E; subst.
  eapply (dc_trans D); [apply (R_clear_tasks D) | apply (dc_note D)].
Qed.
