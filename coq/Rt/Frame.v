(* The frame principle of the runtime engine.  A fact of the kind "this aspect of the heap only ever moves one way"
   is a preorder R on heaps; it relates the heap a runtime function is called on to the heap it returns as soon as
   every primitive heap update respects it.  Proved once, by induction on the fuel of the six mutually recursive
   functions (frameG_all), so that such an invariant costs a record of closure facts and no induction of its own.
   [drop_closed R]: what wake, the channel operations and the drop glue need; it also serves relations that polling
   does not respect (DropFuel.Rna, EvictHost.StB).  [frame_closed P G R]: the rest; P is a precondition on the entry
   heap that R preserves, G a guard on the commands that may push outputs, which run_until_settled establishes from
   "not aborted on entry" (Silent.v).  With both trivial: frame_all, for relations closed under every [good] update
   (Props.v, Perm.v, Evict.v), and Frame2.v for the shapes of update the runtime really performs (Fifo.v). *)
From Coq Require Import List Arith Bool Lia.
From Crux Require Import Rt.Lang Rt.Rt Rt.Tables.
Import ListNotations.

(* in every file that imports this one [simpl] leaves the model's functions folded: proofs go through them by the
   equations of Tables.v and by [cbn] with an explicit list *)
Arguments wake : simpl never.
Arguments drop_fs : simpl never.
Arguments drop_cmd : simpl never.
Arguments new_cmd : simpl never.
Arguments chan_send : simpl never.
Arguments chan_drop_tx : simpl never.
Arguments chan_drop_rx : simpl never.
Arguments chan_reg : simpl never.
Arguments wake_cell : simpl never.
Arguments new_chan : simpl never.
Arguments new_tflag : simpl never.
Arguments holds : simpl never.
Arguments ucmd : simpl never.
Arguments uch : simpl never.
Arguments utf : simpl never.
Arguments note : simpl never.
Arguments set_woken : simpl never.
Arguments push_xready : simpl never.
Arguments push_ev : simpl never.
Arguments push_eff : simpl never.
Arguments gcmd : simpl never.
Arguments gch : simpl never.
Arguments gtf : simpl never.
Arguments slab_get : simpl never.
Arguments slab_set : simpl never.
Arguments slab_remove : simpl never.
Arguments slab_clear : simpl never.
Arguments spawn_one : simpl never.
Arguments was_aborted : simpl never.
Arguments kill_flag : simpl never.
Arguments getd : simpl never.
Arguments updd : simpl never.
Arguments eval : simpl never.
Arguments setv : simpl never.
Arguments map_eff : simpl never.
Arguments map_ev : simpl never.
Arguments drop_req : simpl never.
Arguments add_aborted : simpl never.
Arguments push_hout : simpl never.
Arguments finish_task : simpl never.

(* the updates of channels and task flags the runtime performs are monotone: a closed end of a channel
   stays closed; an abort flag, a finished flag stay set; a task flag whose task is gone stays so *)
Definition goodch (f : chan -> chan) : Prop :=
  forall x, (ch_rx x = false -> ch_rx (f x) = false) /\ (ch_tx x = false -> ch_tx (f x) = false).
Definition goodtf (f : tflag -> tflag) : Prop :=
  forall t, (tf_abort t = true -> tf_abort (f t) = true) /\ (tf_fin t = true -> tf_fin (f t) = true) /\
            (tf_alive t = false -> tf_alive (f t) = false).
Ltac solve_goodch := unfold goodch; intros x; destruct x; simpl; split; intros; first [assumption | reflexivity].
Ltac solve_goodtf := unfold goodtf; intros x; destruct x; simpl; repeat split; intros; first [assumption | reflexivity].

Notation add_chan c H := (mkH (chans H ++ [c]) (tfl H) (cmds H) (woken H) (xready H) (aborted H) (log H) (hout H)) (only parsing).
Notation add_tflag t H := (mkH (chans H) (tfl H ++ [t]) (cmds H) (woken H) (xready H) (aborted H) (log H) (hout H)) (only parsing).
Notation add_gen H := (mkH (chans H) (tfl H) (cmds H) (woken H ++ [false]) (xready H) (aborted H) (log H) (hout H)) (only parsing).
Notation add_cmd c H := (mkH (chans H) (tfl H) (cmds H ++ [c]) (woken H) (xready H) (aborted H) (log H) (hout H)) (only parsing).

(* a goal R H (op1 (op2 (.. H))) for a preorder R: peel one operation at a time from the outside, each closed by [step] *)
Ltac peel refl trans step :=
  first [ assumption | apply refl | step | (eapply trans; [| solve [step]]; peel refl trans step) | (eapply trans; eassumption) ].

Lemma R_fold {R : heap -> heap -> Prop} (R_refl : forall H, R H H) (R_trans : forall a b c, R a b -> R b c -> R a c)
  {A} (g : heap -> A -> heap) (l : list A) : (forall x H, R H (g H x)) -> forall H, R H (fold_left g l H).
Proof.
  intros Hg. induction l as [|x l IH]; intros H; simpl; [apply R_refl|].
  eapply R_trans; [apply Hg | apply IH].
Qed.

(* what a wake does to the heap *)
Section Wake.
  Variable R : heap -> heap -> Prop.
  Hypothesis R_refl : forall H, R H H.
  Hypothesis R_trans : forall a b c, R a b -> R b c -> R a c.
  Hypothesis R_ready_push : forall c s H, R H (ucmd c (fun cm => set_ready (c_ready cm ++ [s]) cm) H).
  Hypothesis R_cell_take : forall c H, R H (ucmd c (set_atomic None) H).
  Hypothesis R_note : forall n H, R H (note n H).
  Hypothesis R_set_woken : forall g H, R H (set_woken g H).
  Hypothesis R_push_xready : forall q H, R H (push_xready q H).

  Lemma R_wake : forall fuel w H, R H (wake fuel w H).
  Proof.
    assert (own : forall c s g H, R H (wake_own c s g H)).
    { intros. unfold wake_own. eapply R_trans; [|apply R_set_woken]. destruct (c_alive (gcmd c H)); [apply R_ready_push | apply R_refl]. }
    induction fuel as [|f IH]; intros [c s g|q] H; rewrite ?wake_exec, ?wake_cmd; try apply R_push_xready;
      (destruct (c_atomic (gcmd c (wake_own c s g H))); [|eapply R_trans; [apply own | apply R_note]]).
    - apply own.
    - eapply R_trans; [apply own|]. eapply R_trans; [apply R_cell_take | apply IH].
  Qed.
End Wake.

Set Implicit Arguments.

(* dc_wake is a fact about a whole function: most relations get it from R_wake, but EvictHost.StB is not closed under
   the emptying of a cell taken by itself and proves it by its own induction *)
Record drop_closed (R : heap -> heap -> Prop) : Prop := {
  dc_refl : forall H, R H H;
  dc_trans : forall a b c, R a b -> R b c -> R a c;
  dc_wake : forall fuel w H, R H (wake fuel w H);
  dc_uch : forall c f H, goodch f -> R H (uch c f H);
  dc_utf : forall u f H, goodtf f -> R H (utf u f H);
  dc_note : forall n H, R H (note n H);
  dc_dropped : forall c H, R H (ucmd c dropped H)
}.

Section DropGlue.
  Variable R : heap -> heap -> Prop.
  Hypothesis D : drop_closed R.
  Let R_refl := dc_refl D.
  Let R_trans := dc_trans D.

  Lemma R_wake_cell ch H : R H (wake_cell ch H).
  Proof.
    unfold wake_cell. destruct (ch_wk (gch ch H)); [|apply R_refl].
    eapply R_trans; [|apply (dc_wake D)]; apply (dc_uch D); solve_goodch.
  Qed.
  Lemma R_chan_send ch v H : R H (snd (chan_send ch v H)).
  Proof.
    unfold chan_send. destruct (ch_rx (gch ch H)); simpl; [|apply (dc_note D)].
    eapply R_trans; [|apply R_wake_cell]; apply (dc_uch D); solve_goodch.
  Qed.
  Lemma R_chan_drop_tx ch H : R H (chan_drop_tx ch H).
  Proof.
    unfold chan_drop_tx. destruct (ch_tx (gch ch H)); [|apply R_refl].
    eapply R_trans; [|apply R_wake_cell]; apply (dc_uch D); solve_goodch.
  Qed.
  Lemma R_chan_drop_rx ch H : R H (chan_drop_rx ch H).
  Proof. unfold chan_drop_rx. apply (dc_uch D); solve_goodch. Qed.
  Lemma R_chan_reg ch w H : R H (chan_reg ch w H).
  Proof. unfold chan_reg. apply (dc_uch D); solve_goodch. Qed.
  Lemma R_drop_req e H : R H (drop_req e H).
  Proof. unfold drop_req. destruct (e_res e); first [apply R_refl | apply R_chan_drop_tx]. Qed.
  Lemma R_kill_flag u H : R H (kill_flag u H).
  Proof. unfold kill_flag. apply (dc_utf D); solve_goodtf. Qed.
  Lemma R_sub_drop q H : R H (sub_drop q H).
  Proof. unfold sub_drop. destruct q as [sent [|] tg v ch|m|sent tg v ch|u]; first [apply R_refl | apply R_chan_drop_rx]. Qed.

  (* drop_cmd after its first step, which marks the record dropped: the requests, the queued and the stored tasks *)
  Lemma R_drop_cmd_tail f cid H : (forall fs Hh, R Hh (drop_fs f fs Hh)) -> R (ucmd cid dropped H) (drop_cmd (S f) cid H).
  Proof.
    intros IHfs.
    assert (T : forall Hh t, R Hh (drop_task f Hh t)) by (intros; eapply R_trans; [apply IHfs | apply R_kill_flag]).
    rewrite drop_cmd_S. repeat (eapply R_trans; [|apply (R_fold R_refl R_trans)]).
    - apply R_refl.
    - intros; apply R_drop_req.
    - intros; apply T.
    - intros [t|] Hh; [apply T | apply R_refl].
  Qed.
  Lemma R_drop : forall fuel,
    (forall fs H, R H (drop_fs fuel fs H)) /\ (forall cid H, R H (drop_cmd fuel cid H)).
  Proof.
    induction fuel as [|f [IHfs IHcmd]]; split; intros; try apply R_refl.
    - rewrite drop_fs_S. eapply R_trans; [|apply (R_fold R_refl R_trans); intros; apply R_chan_drop_rx].
      destruct (f_leaf fs) as [| ? [|] | | | | | | |];
        first [apply R_refl | apply R_chan_drop_rx | apply IHcmd | eapply R_trans; apply R_sub_drop].
    - eapply R_trans; [apply (dc_dropped D) | apply R_drop_cmd_tail, IHfs].
  Qed.
  Lemma R_drop_fs fuel fs H : R H (drop_fs fuel fs H).
  Proof. apply R_drop. Qed.
  Lemma R_drop_cmd fuel cid H : R H (drop_cmd fuel cid H).
  Proof. apply R_drop. Qed.
  Lemma R_clear_tasks l H : R H (clear_tasks l H).
  Proof.
    apply (R_fold R_refl R_trans). intros [t|] Hh; [|apply R_refl].
    eapply R_trans; [apply R_drop_fs | apply R_kill_flag].
  Qed.
  (* finish_task after its first step, tasks.remove(id) *)
  Lemma R_finish_task_tail cid s t H : R (ucmd cid (slab_remove s) H) (finish_task cid s t H).
  Proof.
    unfold finish_task. cbv zeta.
    eapply R_trans; [|apply R_kill_flag]. eapply R_trans; [|apply R_drop_fs].
    eapply R_trans; [|apply (R_fold R_refl R_trans); intros; apply (dc_wake D)].
    apply (dc_utf D); solve_goodtf.
  Qed.
End DropGlue.

(* ShellRequest::poll and the sub-futures of join! / select!, polled by a task of command c *)
Section Polls.
  Variables (R : heap -> heap -> Prop) (D : drop_closed R) (c : nat).
  Hypothesis R_eff : forall e H, R H (push_eff c e H).
  Hypothesis R_hout : forall e H, R H (push_hout e H).
  Let R_refl := dc_refl D.
  Let R_trans := dc_trans D.

  Lemma R_req_poll w sent dead tg v ch H o s' d' H' : req_poll c w sent dead tg v ch H = (o, s', d', H') -> R H H'.
  Proof.
    unfold req_poll. destruct dead; [intros [= <- <- <- <-]; apply R_refl|].
    destruct (negb sent); [|destruct (ch_buf (gch ch H)); [destruct (ch_tx (gch ch H))|]]; intros [= <- <- <- <-].
    - eapply R_trans; [apply (R_chan_reg D) | apply R_eff].
    - apply (R_chan_reg D).
    - eapply R_trans; [apply (R_chan_drop_rx D) | apply (dc_note D)].
    - apply (R_chan_drop_rx D).
  Qed.
  Lemma R_sub_poll w q H q' H' : sub_poll c w q H = (q', H') -> R H H'.
  Proof.
    unfold sub_poll. destruct q as [sent dead tg v ch|m|sent tg v ch|u].
    - destruct (req_poll c w sent dead tg v ch H) as [[[o s'] d'] H1] eqn:E1. apply R_req_poll in E1.
      destruct o; intros [= <- <-]; exact E1.
    - intros [= <- <-]; apply R_refl.
    - set (H1 := if sent then H else push_hout (mkEff tg v [] (RLegacy ch)) H).
      assert (R1 : R H H1) by (subst H1; destruct sent; [apply R_refl | apply R_hout]).
      destruct (ch_buf (gch ch H1)); intros [= <- <-];
        (eapply R_trans; [exact R1|]); [apply (R_chan_reg D) | apply (R_chan_drop_rx D)].
    - destruct (tf_fin (gtf u H)); [intros [= <- <-]; apply R_refl|].
      destruct (tf_alive (gtf u H)); intros [= <- <-]; [apply (dc_utf D); solve_goodtf | apply (dc_note D)].
  Qed.
End Polls.

(* relations that relate the record of every command by a preorder Q respected by what wakes and drop glue do to a record *)
Section Pointwise.
  Variable Q : cmdst -> cmdst -> Prop.
  Hypothesis Q_refl : forall cm, Q cm cm.
  Hypothesis Q_trans : forall a b c, Q a b -> Q b c -> Q a c.
  Hypothesis Q_ready : forall l cm, Q cm (set_ready l cm).
  Hypothesis Q_atomic : forall a cm, Q cm (set_atomic a cm).
  Hypothesis Q_dropped : forall cm, Q cm (dropped cm).
  Definition pointwise (H H' : heap) : Prop := forall c, Q (gcmd c H) (gcmd c H').
  Lemma pointwise_ucmd c f H : (forall cm, Q cm (f cm)) -> pointwise H (ucmd c f H).
  Proof.
    intros Hf c'. destruct (Nat.eq_dec c c') as [->|Hn]; [rewrite gcmd_ucmd_same; apply Hf | rewrite gcmd_ucmd_other by exact Hn; apply Q_refl].
  Qed.
  Lemma pointwise_drop_closed : drop_closed pointwise.
  Proof.
    assert (Rf : forall H, pointwise H H) by (intros H c; apply Q_refl).
    assert (Tr : forall a b c, pointwise a b -> pointwise b c -> pointwise a c) by (intros a b c A B x; eapply Q_trans; [apply A | apply B]).
    constructor; first [exact Rf | exact Tr | intros; exact (Rf _) | idtac].
    - apply R_wake; first [exact Rf | exact Tr | intros; exact (Rf _) | intros; apply pointwise_ucmd; auto].
    - intros; apply pointwise_ucmd, Q_dropped.
  Qed.
End Pointwise.

(* fc_G: a command that was not aborted when a heap satisfying P was settled satisfies G; fc_P lets P travel along R;
   the other fields are one per primitive update of a command record or of the heap's tables *)
Record frame_closed (P : heap -> Prop) (G : nat -> Prop) (R : heap -> heap -> Prop) : Prop := {
  fc_drop : drop_closed R;
  fc_P : forall H H', P H -> R H H' -> P H';
  fc_G : forall cid H, P H -> was_aborted cid H = false -> G cid;
  fc_ev_push : forall c e H, G c -> R H (push_ev c e H);
  fc_eff_push : forall c e H, G c -> R H (push_eff c e H);
  fc_pop_ev : forall c e rest H, c_evs (gcmd c H) = e :: rest -> R H (ucmd c (set_evs rest) H);
  fc_pop_eff : forall c e rest H, c_eff (gcmd c H) = e :: rest -> R H (ucmd c (set_eff rest) H);
  fc_cell : forall c w H, R H (ucmd c (set_atomic (Some w)) H);
  fc_spawnq_push : forall c t H, R H (ucmd c (fun cm => set_spawnq (c_spawnq cm ++ [t]) cm) H);
  fc_spawnq_clear : forall c H, R H (ucmd c (set_spawnq []) H);
  fc_spawn_one : forall c t H, R H (ucmd c (spawn_one t) H);
  fc_ready_set : forall c l H, R H (ucmd c (set_ready l) H);
  fc_slab_set : forall c s t H, R H (ucmd c (slab_set s t) H);
  fc_slab_remove : forall c s H, R H (ucmd c (slab_remove s) H);
  fc_slab_clear : forall c H, R H (ucmd c slab_clear H);
  fc_set_woken : forall g H, R H (set_woken g H);
  fc_add_chan : forall c H, R H (add_chan c H);
  fc_add_tflag : forall t H, R H (add_tflag t H);
  fc_add_gen : forall H, R H (add_gen H);
  fc_add_aborted : forall n H, R H (add_aborted n H);
  fc_push_hout : forall e H, R H (push_hout e H);
  fc_add_cmd : forall c H, R H (add_cmd c H)
}.

Section FrameG.
  Variables (P : heap -> Prop) (G : nat -> Prop) (R : heap -> heap -> Prop).
  Hypothesis C : frame_closed P G R.
  Let D := fc_drop C.
  Let R_refl := dc_refl D.
  Let R_trans := dc_trans D.

  Lemma R_new_cmd names ep en m ex H cid H1 : new_cmd names ep en m ex H = (cid, H1) -> R H H1.
  Proof.
    unfold new_cmd, new_tflag. intros [= _ <-].
    eapply R_trans; [|apply (R_fold R_refl R_trans)].
    - eapply R_trans; [apply (fc_add_tflag C)|].
      match goal with |- R ?H0 (mkH _ _ (_ ++ [?c]) _ _ _ _ _) => exact (fc_add_cmd C c H0) end.
    - intros t Hh. eapply R_trans; [apply (fc_add_tflag C) | apply (fc_spawnq_push C)].
  Qed.
  Lemma R_finish_task cid s t H : R H (finish_task cid s t H).
  Proof. eapply R_trans; [apply (fc_slab_remove C) | apply (R_finish_task_tail D)]. Qed.

  (* the closure field or drop_closed lemma that matches the outermost operation of the goal *)
  Ltac step1 :=
    first [ apply (dc_note D) | apply (R_chan_reg D) | apply (R_chan_drop_rx D) | apply (R_chan_drop_tx D)
          | (apply (dc_uch D); solve_goodch) | (apply (dc_utf D); solve_goodtf) | apply (dc_wake D)
          | apply (R_drop_cmd D) | apply (R_drop_fs D) | apply (R_sub_drop D) | apply (R_kill_flag D)
          | apply (fc_set_woken C) | apply (fc_add_gen C) | apply (fc_add_chan C) | apply (fc_add_tflag C)
          | apply (fc_add_aborted C) | apply (fc_push_hout C)
          | apply (fc_cell C) | apply (fc_spawnq_push C) | apply (fc_spawnq_clear C) | apply (fc_spawn_one C)
          | apply (fc_ready_set C) | apply (fc_slab_set C) | apply (fc_slab_clear C)
          | (apply (fc_ev_push C); assumption) | (apply (fc_eff_push C); assumption) ].
  Ltac rsolve := peel R_refl R_trans ltac:(step1).
  (* E : call .. H1 = Some (.., H'), PH : P H, goal R H H': R H H1 by tac, the rest by the induction hypothesis *)
  Ltac ih IH E PH tac :=
    match type of PH with P ?H0 =>
    match type of E with _ ?H1 = Some _ =>
      let R1 := fresh "R1" in assert (R1 : R H0 H1) by tac;
      apply IH in E; [eapply R_trans; [exact R1 | exact E] | first [assumption | eapply (fc_P C); [exact PH | exact R1]] ..]
    end end.

  (* settle and poll_next carry no guard: on an aborted command they push nothing (its tasks are cleared), on any
     other fc_G provides G *)
  Definition specG (F : rtfuns) : Prop :=
    (forall c w fs H r H', G c -> P H -> rpoll F c w fs H = Some (r, H') -> R H H') /\
    (forall cid w H r H', P H -> rpoll_next F cid w H = Some (r, H') -> R H H') /\
    (forall cid H H', P H -> rsettle F cid H = Some H' -> R H H') /\
    (forall cid H H', G cid -> P H -> rloop F cid H = Some H' -> R H H') /\
    (forall cid H H', G cid -> P H -> rdrain F cid H = Some H' -> R H H') /\
    (forall cid s H r H', G cid -> P H -> rrun_task F cid s H = Some (r, H') -> R H H').

  Lemma specG_step : forall F, specG F -> specG (step_funs F).
  Proof.
    intros F (IHp & IHn & IHs & IHl & IHd & IHr).
    repeat split.
    - (* poll *)
      intros c w fs H r H' Gc PH E. cbn [step_funs rpoll] in E. unfold poll_body in E.
      pose proof (fun e H0 => fc_eff_push C c e H0 Gc) as Reff.
      pose proof (R_req_poll D c Reff) as Rreq. pose proof (R_sub_poll D c Reff (fc_push_hout C)) as Rsub.
      destruct (f_leaf fs) as [t|sent dead tg v ch x k| |u k|cid meff mev k|n k|lsent ltg lv lch lx k|qa qb x1 x2 k|qa qb x k] eqn:EL.
      + (* LRun: TRet first, THost last; every other statement makes primitive steps and polls on *)
        destruct t; unfold new_chan, new_tflag in E; cbv beta iota in E;
          [ destruct (f_stack fs); [injection E as <- <-; apply R_refl|] | ..
          | destruct (new_cmd names (Some (c_epoch (gcmd c H))) (f_env fs) t1 extra H) as [cid H1] eqn:E1; apply R_new_cmd in E1 ];
          ih IHp E PH rsolve.
      + (* LReq *)
        destruct (req_poll c w sent dead tg v ch H) as [[[o s'] d'] H1] eqn:E1. apply Rreq in E1.
        destruct o; [ih IHp E PH rsolve | injection E as <- <-; exact E1].
      + (* LStr *)
        destruct (f_stack fs) as [|fr rest]; [injection E as <- <-; apply R_refl|].
        destruct (negb (fr_sent fr)); [injection E as <- <-; rsolve|].
        destruct (ch_buf (gch (fr_ch fr) H)); [destruct (ch_tx (gch (fr_ch fr) H)); [injection E as <- <-; rsolve|]|]; ih IHp E PH rsolve.
      + (* LJoin *)
        destruct (tf_fin (gtf u H)); [ih IHp E PH rsolve|].
        destruct (tf_alive (gtf u H)); [injection E as <- <-; rsolve | ih IHp E PH rsolve].
      + (* LHost *)
        destruct (rpoll_next F cid w H) as [[rr H1]|] eqn:E1; [|discriminate].
        apply IHn in E1; [|exact PH].
        destruct rr; [injection E as <- <-; exact E1 | | |]; ih IHp E PH ltac:(eapply R_trans; [exact E1 | rsolve]).
      + (* LYield *)
        destruct n; [ih IHp E PH rsolve|]. injection E as <- <-. rsolve.
      + (* LLeg *)
        set (H1 := if lsent then H else push_hout (mkEff ltg lv [] (RLegacy lch)) H) in *.
        assert (R1 : R H H1) by (subst H1; destruct lsent; rsolve).
        destruct (ch_buf (gch lch H1)); [injection E as <- <-; rsolve | ih IHp E PH rsolve].
      + (* LBoth *)
        destruct (sub_poll c w qa H) as [a' H1] eqn:E1. destruct (sub_poll c w qb H1) as [b' H2] eqn:E2.
        apply Rsub in E1. apply Rsub in E2.
        assert (R02 : R H H2) by (eapply R_trans; eassumption).
        destruct a'; try (injection E as <- <-; exact R02).
        destruct b'; try (injection E as <- <-; exact R02).
        ih IHp E PH rsolve.
      + (* LRace *)
        destruct (sub_poll c w qa H) as [a' H1] eqn:E1. apply Rsub in E1.
        destruct a'; [| ih IHp E PH rsolve | |];
          (destruct (sub_poll c w qb H1) as [b' H2] eqn:E2; apply Rsub in E2;
           assert (R02 : R H H2) by (eapply R_trans; eassumption);
           destruct b'; try (injection E as <- <-; exact R02); ih IHp E PH rsolve).
    - (* poll_next: register, settle, then pop an item or settle again *)
      intros cid w H r H' PH E. destruct (poll_next_inv F cid w H r H' E) as (H1 & E1 & K).
      assert (R0 : R H H1) by (ih IHs E1 PH rsolve).
      destruct r as [| |e|e].
      1, 2: destruct K as (_ & _ & E2); ih IHs E2 PH ltac:(exact R0).
      + destruct K as (rest & _ & EF & ->). eapply R_trans; [exact R0 | eapply (fc_pop_eff C); exact EF].
      + destruct K as (rest & EV & ->). eapply R_trans; [exact R0 | eapply (fc_pop_ev C); exact EV].
    - (* settle *)
      intros cid H H' PH E. rewrite rsettle_step in E. destruct (was_aborted cid H) eqn:EA.
      + injection E as <-. eapply R_trans; [|apply (dc_note D)].
        eapply R_trans; [apply (fc_slab_clear C) | apply (R_clear_tasks D)].
      + eapply IHl; [eapply (fc_G C); eassumption | exact PH | exact E].
    - (* loop *)
      intros cid H H' Gc PH E. cbn [step_funs rloop] in E. unfold loop_body in E.
      match type of E with context[fold_left ?g ?l ?H0] => assert (R1 : R H (fold_left g l H0)) end.
      { eapply R_trans; [|apply (R_fold R_refl R_trans)]; [|intros]; rsolve. }
      match type of E with context[fold_left ?g ?l ?H0] => set (H1 := fold_left g l H0) in * end.
      destruct (c_ready (gcmd cid H1)); [injection E as <-; exact R1|].
      destruct (rdrain F cid H1) as [H2|] eqn:E2; [|discriminate].
      assert (R2 : R H H2) by (ih IHd E2 PH ltac:(exact R1)).
      ih IHl E PH ltac:(exact R2).
    - (* drain *)
      intros cid H H' Gc PH E. cbn [step_funs rdrain] in E. unfold drain_body in E.
      destruct (c_ready (gcmd cid H)) as [|s rest]; [injection E as <-; apply R_refl|].
      destruct (rrun_task F cid s (ucmd cid (set_ready rest) H)) as [[st H2]|] eqn:E2; [|discriminate].
      assert (R2 : R H H2) by (ih IHr E2 PH rsolve).
      ih IHd E PH ltac:(eapply R_trans; [exact R2|];
        destruct st; try apply R_refl; (destruct (slab_get s (gcmd cid H2)) as [t|]; [apply R_finish_task | apply R_refl])).
    - (* run_task *)
      intros cid s H r H' Gc PH E. cbn [step_funs rrun_task] in E. unfold run_task_body in E.
      destruct (slab_get s (gcmd cid H)) as [t|]; [|injection E as <- <-; rsolve].
      match type of E with (if ?b then _ else _) = _ => destruct b end; [injection E as <- <-; rsolve|].
      match type of E with context[rpoll F cid ?w ?fs ?H1] => destruct (rpoll F cid w fs H1) as [[pr H2]|] eqn:E2; [|discriminate] end.
      assert (R0 : R H H2) by (ih IHp E2 PH rsolve).
      destruct pr; [match type of E with context[if ?b then _ else _] => destruct b end|]; injection E as <- <-; rsolve.
  Qed.

  Theorem frameG_all : forall fuel, specG (funs fuel).
  Proof.
    induction fuel as [|f IH]; [repeat split; simpl; intros; discriminate | apply specG_step; exact IH].
  Qed.
End FrameG.

Unset Implicit Arguments.

(* what no runtime step may change of a command record, and what only moves one way: a dropped Command stays dropped *)
Definition meta (c : cmdst) := (c_names c, c_epoch c).
Definition good (f : cmdst -> cmdst) : Prop :=
  forall cm, meta (f cm) = meta cm /\ (c_alive cm = false -> c_alive (f cm) = false).

(* the record is destructed BEFORE anything is unfolded: each setter mentions its argument once per field, so
   unfolding nested setters over a variable multiplies the term by twelve per level *)
Ltac solve_good := intros cm; destruct cm; unfold spawn_one, slab_insert; cbn;
  repeat match goal with |- context[if ?b then _ else _] => destruct b end;
  (split; [reflexivity | intros; first [assumption | reflexivity]]).

Lemma good_shapes :
  (forall s, good (fun cm => set_ready (c_ready cm ++ [s]) cm)) /\ (forall a, good (set_atomic a)) /\ good dropped /\
  (forall e, good (fun cm => set_evs (c_evs cm ++ [e]) cm)) /\ (forall e, good (fun cm => set_eff (c_eff cm ++ [e]) cm)) /\
  (forall l, good (set_evs l)) /\ (forall l, good (set_eff l)) /\
  (forall t, good (fun cm => set_spawnq (c_spawnq cm ++ [t]) cm)) /\ good (set_spawnq []) /\ (forall t, good (spawn_one t)) /\
  (forall l, good (set_ready l)) /\ (forall s t, good (slab_set s t)) /\ (forall s, good (slab_remove s)) /\ good slab_clear.
Proof. repeat match goal with |- _ /\ _ => split end; intros; unfold dropped; solve_good. Qed.

(* the plain principle *)
Section Frame.
  Variable R : heap -> heap -> Prop.
  Hypothesis R_refl : forall H, R H H.
  Hypothesis R_trans : forall a b c, R a b -> R b c -> R a c.
  Hypothesis R_ucmd : forall c f H, good f -> R H (ucmd c f H).
  Hypothesis R_uch : forall c f H, goodch f -> R H (uch c f H).
  Hypothesis R_utf : forall u f H, goodtf f -> R H (utf u f H).
  Hypothesis R_note : forall n H, R H (note n H).
  Hypothesis R_set_woken : forall g H, R H (set_woken g H).
  Hypothesis R_push_xready : forall q H, R H (push_xready q H).
  Hypothesis R_add_chan : forall c H, R H (mkH (chans H ++ [c]) (tfl H) (cmds H) (woken H) (xready H) (aborted H) (log H) (hout H)).
  Hypothesis R_add_tflag : forall t H, R H (mkH (chans H) (tfl H ++ [t]) (cmds H) (woken H) (xready H) (aborted H) (log H) (hout H)).
  Hypothesis R_add_gen : forall H, R H (mkH (chans H) (tfl H) (cmds H) (woken H ++ [false]) (xready H) (aborted H) (log H) (hout H)).
  Hypothesis R_add_aborted : forall n H, R H (add_aborted n H).
  Hypothesis R_push_hout : forall e H, R H (push_hout e H).
  Hypothesis R_add_cmd : forall c H, R H (mkH (chans H) (tfl H) (cmds H ++ [c]) (woken H) (xready H) (aborted H) (log H) (hout H)).

  Lemma good_drop_closed : drop_closed R.
  Proof using R_refl R_trans R_ucmd R_uch R_utf R_note R_set_woken R_push_xready.
    destruct good_shapes as (g1 & g2 & g3 & _).
    constructor; auto. apply R_wake; auto.
  Qed.
  Lemma good_frame_closed : frame_closed (fun _ => True) (fun _ => True) R.
  Proof.
    destruct good_shapes as (g1 & g2 & g3 & g4 & g5 & g6 & g7 & g8 & g9 & g10 & g11 & g12 & g13 & g14).
    (* a field that updates a command record is R_ucmd at the conjunct of good_shapes with its shape *)
    constructor; auto; try (intros; apply R_ucmd; auto). apply good_drop_closed.
  Qed.

  Definition spec (F : rtfuns) : Prop :=
    (forall c w fs H r H', rpoll F c w fs H = Some (r, H') -> R H H') /\
    (forall cid w H r H', rpoll_next F cid w H = Some (r, H') -> R H H') /\
    (forall cid H H', rsettle F cid H = Some H' -> R H H') /\
    (forall cid H H', rloop F cid H = Some H' -> R H H') /\
    (forall cid H H', rdrain F cid H = Some H' -> R H H') /\
    (forall cid s H r H', rrun_task F cid s H = Some (r, H') -> R H H').

  Lemma closed_spec : frame_closed (fun _ => True) (fun _ => True) R -> forall fuel, spec (funs fuel).
  Proof using Type.
    intros K fuel. destruct (frameG_all K fuel) as (A & B & C & D & E & F).
    split; [|split; [|split; [|split; [|split]]]]; intros;
      [eapply A | eapply B | eapply C | eapply D | eapply E | eapply F]; try exact I; eassumption.
  Qed.
  Theorem frame_all : forall fuel, spec (funs fuel).
  Proof. exact (closed_spec good_frame_closed). Qed.

  Lemma frame_settle fuel cid H H' : settle fuel cid H = Some H' -> R H H'.
  Proof. apply (frame_all fuel). Qed.
  Lemma frame_loop fuel cid H H' : settle_loop fuel cid H = Some H' -> R H H'.
  Proof. apply (frame_all fuel). Qed.
  Lemma frame_poll_next fuel cid w H r H' : poll_next fuel cid w H = Some (r, H') -> R H H'.
  Proof. apply (frame_all fuel). Qed.
  Lemma frame_poll fuel c w fs H r H' : poll fuel c w fs H = Some (r, H') -> R H H'.
  Proof. apply (frame_all fuel). Qed.
  Lemma frame_drain fuel cid H H' : drain fuel cid H = Some H' -> R H H'.
  Proof. apply (frame_all fuel). Qed.
  Lemma frame_run_task fuel cid s H r H' : run_task fuel cid s H = Some (r, H') -> R H H'.
  Proof. apply (frame_all fuel). Qed.
End Frame.
Arguments closed_spec {R}.
