(* The reference semantics under a Core (RefCore.v), by counting the waiters on a request id ([cw_*]).  For C02:
   ids are never reused, every reachable state has at most one waiter per id ([Inv]), and an answer is received -
   unchanged, in the variable the task named - by exactly the strand that asked. *)
From Coq Require Import List Arith Bool Lia ZifyBool.
From Crux Require Import Rt.Lang Rt.Rt Rt.Host Rt.Ref Rt.RefFacts Rt.RefCore.
Import ListNotations.

Local Arguments Nat.eqb : simpl never.
Local Arguments Nat.leb : simpl never.
Local Arguments Nat.ltb : simpl never.

Definition b2n (b : bool) : nat := if b then 1 else 0.
Definition inr (n n' r : nat) : nat := b2n ((n <=? r) && (r <? n')).

(* [b2n] is [Nat.b2n], which [lia] knows (ZifyBool) *)
Local Arguments b2n : simpl never.
Ltac bl := unfold inr in *; change b2n with Nat.b2n in *; lia.

Lemma ls_cons a l : list_sum (a :: l) = a + list_sum l. Proof. reflexivity. Qed.
Lemma ls_nil : list_sum [] = 0. Proof. reflexivity. Qed.

(* [cw_* r x]: the number of places in [x] that wait on request id [r] (a leaf or a slot waiting for its answer,
   a stream frame on the stack).  A step only moves or removes waiters, except that a request just issued waits
   on its own id, allocated in that very step: that is the [inr n n' r] of [run_strand_cw] and its followers. *)
Section Count.
  Variable r : nat.
  Definition cw_slot (q : rslot) : nat := match q with SWait r' => b2n (Nat.eqb r' r) | _ => 0 end.
  Definition cw_leaf (l : rleaf) : nat :=
    match l with
    | RReq r' _ _ => b2n (Nat.eqb r' r)
    | RBoth a b _ _ _ | RRace a b _ _ => cw_slot a + cw_slot b
    | RBothJ _ b _ _ => cw_slot b
    | _ => 0
    end.
  Fixpoint cw_frames (st : list rframe) : nat :=
    match st with [] => 0 | fr :: t => b2n (Nat.eqb (rf_rid fr) r) + cw_frames t end.
  Definition cw_strand (s : rstrand) : nat := cw_leaf (s_leaf s) + cw_frames (s_stack s).
  Fixpoint cw_strands (l : list rstrand) : nat := match l with [] => 0 | s :: t => cw_strand s + cw_strands t end.
  Definition cw_opt (o : option rstrand) : nat := match o with Some s => cw_strand s | None => 0 end.
  Definition cw_bag (b : rbag) : nat := cw_strands (b_strands b).
  Fixpoint cw_rc (c : rc) : nat :=
    match c with
    | RBag b => cw_bag b
    | RSeq a _ => cw_rc a
    | RPar l => list_sum (map cw_rc l)
    | RMapEff _ a | RMapEv _ a => cw_rc a
    end.
  Definition cw_cmds (l : list kcmd) : nat := list_sum (map (fun c => cw_rc (kc_rc c)) l).

  Lemma cw_strands_app a b : cw_strands (a ++ b) = cw_strands a + cw_strands b.
  Proof. induction a as [|x a IH]; simpl; [reflexivity | rewrite IH; lia]. Qed.
  Lemma cw_strands_rev a : cw_strands (rev a) = cw_strands a.
  Proof. induction a as [|x a IH]; simpl; [reflexivity | rewrite cw_strands_app, IH; simpl; lia]. Qed.
  (* deliver and drop go through the frames of a strand changing, in those of one request, fields other than the id *)
  Lemma cw_frames_upd rid (g : rframe -> rframe) st : (forall fr, rf_rid (g fr) = rf_rid fr) ->
    cw_frames (map (fun fr => if Nat.eqb (rf_rid fr) rid then g fr else fr) st) = cw_frames st.
  Proof.
    intros Hg. induction st as [|fr st IH]; cbn [map cw_frames]; [reflexivity|]. rewrite IH.
    destruct (Nat.eqb (rf_rid fr) rid); [rewrite Hg|]; reflexivity.
  Qed.
  Lemma cw_cmds_app a b : cw_cmds (a ++ b) = cw_cmds a + cw_cmds b.
  Proof. unfold cw_cmds. rewrite map_app, list_sum_app. reflexivity. Qed.
  Lemma cw_cmds_one en c : cw_cmds [mkKC en c] = cw_rc c.
  Proof. unfold cw_cmds. cbn [map kc_rc]. rewrite ls_cons, ls_nil. lia. Qed.
End Count.

(* a step returns (a request just issued has a fresh id, between n and n'), or goes on with the same waiters *)
Ltac fin E := inversion E; subst; clear E; split; [lia | intros rr; unfold cw_opt, cw_strand; simpl; bl].
Ltac rec IH E := apply IH in E; destruct E as [L C]; split; [lia | intros rr; specialize (C rr); revert C; unfold cw_strand; simpl; try rewrite cw_strands_app; simpl; bl].
Lemma run_strand_cw : forall fuel s nu n acc o os acc' nu' n' o',
  run_strand fuel s nu n acc o = Some (os, acc', nu', n', o') ->
  n <= n' /\ forall r, cw_opt r os + cw_strands r acc' <= cw_strand r s + cw_strands r acc + inr n n' r.
Proof.
  induction fuel as [|f IH]; intros s nu n acc o os acc' nu' n' o' E; [discriminate|].
  cbn [run_strand] in E. destruct s as [u en lf st]. cbn [s_uid s_env s_stack s_leaf] in E.
  destruct lf as [t|rid x k| |uid k| |a b x1 x2 k|a b x k|uid b x k].
  - (* [task] in the order of Lang.v: TRet, TEmit, TNotify, TReq, TForEach, TSpawn, TJoin, TAbortT, TYield,
       TLegReq, TAbortC, TBoth, TBothL, TBothJ, TRace, THost *)
    destruct t.
    + destruct st; [fin E | rec IH E].
    + rec IH E.
    + rec IH E.
    + fin E.
    + fin E.
    + rec IH E.
    + fin E.
    + rec IH E.
    + rec IH E.
    + fin E.
    + rec IH E.
    + fin E.
    + fin E.
    + fin E.
    + fin E.
    + rec IH E.
  - fin E.
  - destruct st as [|fr rest]; [fin E|].
    destruct (rf_buf fr) as [|m more] eqn:EB.
    + destruct (rf_closed fr); [rec IH E | fin E].
    + rec IH E.
  - fin E.
  - fin E.
  - destruct a, b; try (fin E); rec IH E.
  - destruct a, b; try (fin E); rec IH E.
  - fin E.
Qed.

Lemma pick_cw b : forall l pre p s q, pick b pre l = Some (p, s, q) ->
  forall r, cw_strands r p + cw_strand r s + cw_strands r q = cw_strands r pre + cw_strands r l.
Proof.
  induction l as [|x l IH]; intros pre p s q E rr; simpl in E; [discriminate|].
  destruct (can_move b x).
  - inversion E; subst. rewrite cw_strands_rev. simpl. lia.
  - apply IH with (r := rr) in E. simpl in *. lia.
Qed.
Lemma unblock_cw r s : cw_strand r (unblock s) = cw_strand r s.
Proof. unfold unblock, cw_strand. destruct (s_leaf s) eqn:E; simpl; rewrite ?E; reflexivity. Qed.

Lemma inr_trans n n1 n2 r : n <= n1 -> n1 <= n2 -> inr n n1 r + inr n1 n2 r <= inr n n2 r.
Proof. intros. bl. Qed.

Lemma run_bag_cw : forall fuel b n o b' n' o',
  run_bag fuel b n o = Some (b', n', o') ->
  n <= n' /\ forall r, cw_bag r b' <= cw_bag r b + inr n n' r.
Proof.
  induction fuel as [|f IH]; intros b n o b' n' o' E; [discriminate|].
  cbn [run_bag] in E.
  destruct (pick b [] (b_strands b)) as [[[pre s] post]|] eqn:EP.
  2:{ inversion E; subst. split; [lia | intros rr; lia]. }
  pose proof (pick_cw b _ _ _ _ _ EP) as P.
  destruct (run_strand SF (unblock s) (b_next b) n [] o) as [[[[[os spawned] nu] n1] o1]|] eqn:ES; [|discriminate].
  apply run_strand_cw in ES. destruct ES as [L1 C1].
  destruct os as [s'|]; apply IH in E; destruct E as [L2 C2]; (split; [lia|]); intros rr;
    specialize (C2 rr); specialize (C1 rr); specialize (P rr); pose proof (inr_trans n n1 n' rr L1 L2);
    unfold cw_bag in *; simpl in *; repeat rewrite cw_strands_app in C2; simpl in *; rewrite unblock_cw in C1; lia.
Qed.

Lemma start_bag_cw r en m ex : cw_bag r (start_bag en m ex) = 0.
Proof.
  unfold start_bag, cw_bag. cbn [b_strands cw_strands]. unfold cw_strand at 1. cbn [s_leaf s_stack cw_leaf cw_frames].
  induction (combine (seq 0 (length ex)) ex) as [|x l IH]; cbn [map cw_strands]; [reflexivity|].
  unfold cw_strand at 1. cbn [s_leaf s_stack cw_leaf cw_frames]. exact IH.
Qed.
Lemma start_cw r : forall c en, cw_rc r (start en c) = 0.
Proof.
  fix IH 1. intros c en.
  destruct c as [m ex|a b|a b|cs|k c'|k c'|c'|c'|c'|nm c'|rb ev|sb ev]; cbn [start cw_rc]; try apply IH; try apply start_bag_cw.
  - cbn [map]; rewrite ?ls_cons, ?ls_nil. rewrite !IH. reflexivity.
  - induction cs as [|x cs IHl]; cbn [map]; rewrite ?ls_cons, ?ls_nil; [reflexivity|]. rewrite IH. exact IHl.
Qed.

(* the kernel must never unfold the fuel numerals while re-checking these proofs *)
Strategy opaque [SF RF].
Lemma run_cw : forall fuel en c n c' n' o,
  run fuel en c n = Some (c', n', o) ->
  n <= n' /\ forall r, cw_rc r c' <= cw_rc r c + inr n n' r.
Proof.
  induction fuel as [|f IH]; intros en c n c' n' o E; [discriminate|].
  destruct c as [b|a b|l|k a|k a].
  - rewrite run_bag_eq in E. destruct (run_bag SF b n ro0) as [[[b1 n1] o1]|] eqn:EB; [|discriminate].
    inversion E; subst. apply run_bag_cw in EB. exact EB.
  - rewrite run_seq_eq in E. destruct (run f en a n) as [[[a1 n1] o1]|] eqn:EA; [|discriminate].
    apply IH in EA. destruct EA as [L1 C1].
    destruct (rdone a1).
    + destruct (run f en (start en b) n1) as [[[b2 n2] o2]|] eqn:EB; [|discriminate].
      inversion E; subst. apply IH in EB. destruct EB as [L2 C2]. split; [lia|]. intros rr.
      specialize (C2 rr). rewrite start_cw in C2. pose proof (inr_trans n n1 n' rr L1 L2). simpl. lia.
    + inversion E; subst. split; [lia|]. intros rr. simpl. apply C1.
  - rewrite run_par_eq in E. destruct (run_list f en l n) as [[[l1 n1] o1]|] eqn:EG; [|discriminate].
    inversion E; subst. revert EG.
    apply run_list_ind with (P := fun x n x' n' _ => n <= n' /\ forall r, cw_rc r x' <= cw_rc r x + inr n n' r)
      (Q := fun l n l' n' _ => n <= n' /\ forall r, list_sum (map (cw_rc r) l') <= list_sum (map (cw_rc r) l) + inr n n' r).
    + intros x m x' m' p. apply IH.
    + intros m. split; [lia | intros rr; simpl; lia].
    + intros x l0 m x' m1 p1 l' m2 p2 [L1 C1] [L2 C2]. split; [lia|]. intros rr.
      specialize (C1 rr). specialize (C2 rr). pose proof (inr_trans m m1 m2 rr L1 L2). simpl. lia.
  - rewrite run_mapeff_eq in E. destruct (run f en a n) as [[[a1 n1] o1]|] eqn:EA; [|discriminate]. inversion E; subst. apply IH in EA. exact EA.
  - rewrite run_mapev_eq in E. destruct (run f en a n) as [[[a1 n1] o1]|] eqn:EA; [|discriminate]. inversion E; subst. apply IH in EA. exact EA.
Qed.

Lemma fill_slot_cw r rid v q : cw_slot r (snd (fill_slot rid v q)) <= cw_slot r q.
Proof. unfold fill_slot. destruct q as [r'| |]; simpl; try lia. destruct (Nat.eqb r' rid); simpl; lia. Qed.
Lemma gone_slot_cw r rid q : cw_slot r (gone_slot rid q) <= cw_slot r q.
Proof. unfold gone_slot. destruct q as [r'| |]; simpl; try lia. destruct (Nat.eqb r' rid); simpl; lia. Qed.

Lemma deliver_strand_cw r rid v s : cw_strand r (snd (deliver_strand rid v s)) <= cw_strand r s.
Proof.
  unfold deliver_strand, cw_strand.
  destruct (s_leaf s) as [t|r' x k| |u k| |a b x1 x2 k|a b x k|uid b x k] eqn:EL; cbn [snd s_leaf s_stack]; try (rewrite cw_frames_upd, ?EL by reflexivity; simpl; lia).
  2,3: pose proof (fill_slot_cw r rid v a); pose proof (fill_slot_cw r rid v b);
       destruct (fill_slot rid v a) as [ta a'], (fill_slot rid v b) as [tb b']; cbn [snd] in *;
       destruct (ta || tb); cbn [snd s_leaf s_stack]; [simpl; lia | rewrite cw_frames_upd, ?EL by reflexivity; simpl; lia].
  - destruct (Nat.eqb r' rid); cbn [snd s_leaf s_stack]; [simpl; lia | rewrite cw_frames_upd, ?EL by reflexivity; simpl; lia].
  - pose proof (fill_slot_cw r rid v b).
    destruct (fill_slot rid v b) as [tb b']. cbn [snd] in *.
    destruct tb; cbn [snd s_leaf s_stack]; [simpl; lia | rewrite cw_frames_upd, ?EL by reflexivity; simpl; lia].
Qed.

Lemma deliver_cw r rid v c : cw_rc r (snd (deliver rid v c)) <= cw_rc r c.
Proof.
  induction c as [b|a b IH|l IH|k a IH|k a IH] using rc_ind'; cbn [deliver]; try (destruct (deliver rid v a) as [t a']; exact IH).
  - cbn [snd cw_rc]. unfold cw_bag. cbn [b_strands]. induction (b_strands b) as [|s l IHl]; cbn [map cw_strands]; [lia|].
    pose proof (deliver_strand_cw r rid v s). lia.
  - cbn [snd cw_rc]. rewrite !map_map. apply list_sum_map_le, IH.
Qed.

Lemma close_frames_cw r rid s : cw_strand r (close_frames rid s) = cw_strand r s.
Proof.
  unfold close_frames, cw_strand. cbn [s_leaf s_stack]. rewrite cw_frames_upd by reflexivity. reflexivity.
Qed.
Lemma kill_waiter_cw r rid s : cw_strand r (kill_waiter rid s) <= cw_strand r s.
Proof.
  unfold kill_waiter. destruct (waits_once rid s).
  - unfold cw_strand; simpl. lia.
  - destruct (s_leaf s) as [t|r' x k| |u k| |a b x1 x2 k|a b x k|uid b x k] eqn:EL; rewrite close_frames_cw; try lia.
    all: unfold cw_strand; cbn [s_leaf s_stack]; rewrite EL; simpl;
      try pose proof (gone_slot_cw r rid a); pose proof (gone_slot_cw r rid b); lia.
Qed.
Lemma dropreq_cw r rid c : cw_rc r (dropreq rid c) <= cw_rc r c.
Proof.
  induction c as [b|a b IH|l IH|k a IH|k a IH] using rc_ind'; cbn [dropreq cw_rc]; try exact IH.
  - unfold cw_bag. cbn [b_strands]. induction (b_strands b) as [|s l IHl]; cbn [map cw_strands]; [lia|].
    pose proof (kill_waiter_cw r rid s). lia.
  - rewrite map_map. apply list_sum_map_le, IH.
Qed.

Lemma run_cmds_cw : forall fuel l n l' n' o,
  run_cmds fuel l n = Some (l', n', o) ->
  n <= n' /\ forall r, cw_cmds r l' <= cw_cmds r l + inr n n' r.
Proof.
  intros fuel. induction l as [|c l IH]; intros n l' n' o E; cbn [run_cmds] in E.
  - inversion E; subst. split; [lia | intros rr; lia].
  - destruct (run fuel (kc_env c) (kc_rc c) n) as [[[c1 n1] o1]|] eqn:EC; [|discriminate].
    destruct (run_cmds fuel l n1) as [[[l2 n2] o2]|] eqn:EL; [|discriminate].
    apply run_cw in EC. destruct EC as [L1 C1]. apply IH in EL. destruct EL as [L2 C2].
    inversion E; subst. split; [lia|]. intros rr. specialize (C1 rr). specialize (C2 rr).
    pose proof (inr_trans n n1 n' rr L1 L2). unfold cw_cmds in *.
    destruct (rdone c1); cbn [map kc_rc]; rewrite ?ls_cons, ?ls_nil; lia.
Qed.

Lemma kprocess_cw : forall fuel hs st st',
  kprocess fuel hs st = Some st' ->
  ks_n st <= ks_n st' /\ forall r, cw_cmds r (ks_cmds st') <= cw_cmds r (ks_cmds st) + inr (ks_n st) (ks_n st') r.
Proof.
  induction fuel as [|f IH]; intros hs st st' E; [discriminate|]. cbn [kprocess] in E.
  destruct (run_cmds RF (ks_cmds st) (ks_n st)) as [[[l1 n1] o1]|] eqn:ER; [|discriminate].
  apply run_cmds_cw in ER. destruct ER as [L1 C1].
  destruct (ks_q st ++ ro_evs o1) as [|e rest].
  - inversion E; subst. cbn [ks_n ks_cmds]. split; [exact L1 | exact C1].
  - apply IH in E. cbn [ks_n ks_cmds] in E. destruct E as [L2 C2]. split; [lia|]. intros rr.
    specialize (C1 rr). specialize (C2 rr). rewrite cw_cmds_app, cw_cmds_one, start_cw in C2. pose proof (inr_trans (ks_n st) n1 (ks_n st') rr L1 L2). lia.
Qed.

(* the invariant of every reachable state: at most one waiter per request id, and only on ids already issued *)
Definition Inv (st : kst) : Prop :=
  forall r, cw_cmds r (ks_cmds st) <= 1 /\ (1 <= cw_cmds r (ks_cmds st) -> r < ks_n st).

Lemma Inv_step n l n' l' :
  n <= n' -> (forall r, cw_cmds r l' <= cw_cmds r l + inr n n' r) ->
  (forall r, cw_cmds r l <= 1 /\ (1 <= cw_cmds r l -> r < n)) ->
  forall r, cw_cmds r l' <= 1 /\ (1 <= cw_cmds r l' -> r < n').
Proof. intros L C I rr. specialize (C rr). specialize (I rr). bl. Qed.

Lemma kdeliver_cw r rid v l : cw_cmds r (snd (kdeliver rid v l)) <= cw_cmds r l.
Proof.
  unfold kdeliver. cbn [snd]. unfold cw_cmds. induction l as [|c l IH]; cbn [map]; rewrite ?ls_cons, ?ls_nil; [lia|].
  pose proof (deliver_cw r rid v (kc_rc c)). destruct (deliver rid v (kc_rc c)) as [t c']. cbn [snd kc_rc] in *. lia.
Qed.
Lemma kdrop_cw r rid l : cw_cmds r (map (fun c => mkKC (kc_env c) (dropreq rid (kc_rc c))) l) <= cw_cmds r l.
Proof.
  unfold cw_cmds. induction l as [|c l IH]; cbn [map kc_rc]; rewrite ?ls_cons, ?ls_nil; [lia|]. pose proof (dropreq_cw r rid (kc_rc c)). lia.
Qed.

Lemma Inv_kprocess hs st st' :
  kprocess RF hs st = Some st' -> Inv st -> Inv st'.
Proof. intros E I. apply kprocess_cw in E. destruct E as [L C]. unfold Inv. eapply Inv_step; eauto. Qed.
Lemma Inv_weaken st l : ks_n st = ks_n st -> (forall r, cw_cmds r l <= cw_cmds r (ks_cmds st)) -> Inv st -> Inv (with_cmds l st).
Proof. intros _ C I rr. specialize (C rr). specialize (I rr). unfold with_cmds; cbn [ks_cmds ks_n]. lia. Qed.

Lemma kstep_inv hs a st o st' : kstep hs a st = Some (o, st') ->
  (st' = st /\ forall effs lg, o <> KCall 0 effs lg) \/
  (o = KNone /\ ks_n st' = ks_n st /\ forall r, cw_cmds r (ks_cmds st') <= cw_cmds r (ks_cmds st)) \/
  (exists st1 st2, kprocess RF hs st1 = Some st2 /\ (o, st') = kreturn st2 /\
                   ks_n st1 = ks_n st /\ forall r, cw_cmds r (ks_cmds st1) <= cw_cmds r (ks_cmds st)).
Proof.
  assert (Call : forall st1, ks_n st1 = ks_n st -> (forall r, cw_cmds r (ks_cmds st1) <= cw_cmds r (ks_cmds st)) ->
            match kprocess RF hs st1 with None => None | Some st2 => Some (kreturn st2) end = Some (o, st') ->
            exists st1 st2, kprocess RF hs st1 = Some st2 /\ (o, st') = kreturn st2 /\
                            ks_n st1 = ks_n st /\ forall r, cw_cmds r (ks_cmds st1) <= cw_cmds r (ks_cmds st)).
  { intros st1 En Ec E. destruct (kprocess RF hs st1) as [st2|] eqn:P; [|discriminate]. exists st1, st2. inversion E. auto. }
  assert (Same : forall x, (forall effs lg, x <> KCall 0 effs lg) -> Some (x, st) = Some (o, st') ->
            st' = st /\ forall effs lg, o <> KCall 0 effs lg) by (intros x Hx E; inversion E; subst; auto).
  intros E. destruct a; cbn [kstep] in E; try (left; apply (Same KNone); [discriminate | exact E]).
  - destruct (find_rr tg v occ 0 (ks_reqs st)) as [i|]; [|left; apply (Same (KResolve 3)); [discriminate | exact E]].
    set (q := nth i (ks_reqs st) _) in *.
    assert (D := fun r => kdeliver_cw r (re_rid (rr_eff q)) out (ks_cmds st)).
    destruct (kdeliver (re_rid (rr_eff q)) out (ks_cmds st)) as [t l']. cbn [snd] in D.
    destruct (rr_state q) as [|[|[|k]]]; [left; eapply Same; [|exact E]; discriminate | | destruct t | left; eapply Same; [|exact E]; discriminate].
    + right; right. apply Call in E; [exact E | reflexivity | exact D].
    + right; right. apply Call in E; [exact E | reflexivity | exact D].
    + left; eapply Same; [|exact E]; discriminate.
  - right; left. destruct (find_rr tg v occ 0 (ks_reqs st)) as [i|]; [|inversion E; subst; auto].
    set (q := nth i (ks_reqs st) _) in *.
    destruct (rr_state q) as [|[|[|[|k]]]]; try (inversion E; subst; auto; fail);
      (destruct (Nat.eqb (re_kind (rr_eff q)) 3); inversion E; subst; cbn [ks_n ks_cmds with_reqs with_cmds]; auto;
       split; [reflexivity | split; [reflexivity | intros r; apply kdrop_cw]]).
  - right; right. apply Call in E; [exact E | reflexivity|].
    intros r. cbn [ks_cmds]. rewrite cw_cmds_app, cw_cmds_one, start_cw. lia.
Qed.

Theorem Inv_kstep hs a st o st' : kstep hs a st = Some (o, st') -> Inv st -> Inv st'.
Proof.
  intros E I. apply kstep_inv in E as [[-> _] | [(_ & En & Ec) | (st1 & st2 & P & Y & En & Ec)]]; [exact I | |].
  - intros rr. specialize (I rr). specialize (Ec rr). rewrite En. lia.
  - unfold kreturn in Y. inversion Y; subst o st'. apply (Inv_kprocess hs st1 st2 P).
    intros rr. specialize (I rr). specialize (Ec rr). rewrite En. lia.
Qed.

Lemma Inv0 : Inv ks0.
Proof. intros rr. unfold ks0, cw_cmds; simpl. lia. Qed.

Inductive reach (hs : handlers) : kst -> Prop :=
| reach0 : reach hs ks0
| reach_step a st o st' : reach hs st -> kstep hs a st = Some (o, st') -> reach hs st'.
Lemma reach_step' hs a st st' : reach hs st -> option_map snd (kstep hs a st) = Some st' -> reach hs st'.
Proof. intros R E. destruct (kstep hs a st) as [[o s1]|] eqn:EK; [|discriminate]. inversion E; subst. eapply reach_step; eauto. Qed.
Theorem reach_Inv hs st : reach hs st -> Inv st.
Proof. induction 1 as [|a st o st' R IH E]; [exact Inv0 | eapply Inv_kstep; eauto]. Qed.

Lemma fill_slot_other rid v q : cw_slot rid q = 0 -> fill_slot rid v q = (false, q).
Proof. unfold fill_slot, cw_slot. destruct q as [r'| |]; try reflexivity. destruct (Nat.eqb r' rid); [discriminate | reflexivity]. Qed.
Lemma frames_none rid st : cw_frames rid st = 0 -> existsb (fun fr => Nat.eqb (rf_rid fr) rid) st = false.
Proof. induction st as [|fr st IH]; cbn [cw_frames existsb]; [reflexivity|]. destruct (Nat.eqb (rf_rid fr) rid); [discriminate | exact IH]. Qed.
Lemma frames_upd_other rid (g : rframe -> rframe) st : cw_frames rid st = 0 ->
  map (fun fr => if Nat.eqb (rf_rid fr) rid then g fr else fr) st = st.
Proof.
  induction st as [|fr st IH]; cbn [cw_frames map]; intros E; [reflexivity|].
  destruct (Nat.eqb (rf_rid fr) rid); [discriminate|]. rewrite IH by exact E. reflexivity.
Qed.
Lemma deliver_strand_other rid v s : cw_strand rid s = 0 -> deliver_strand rid v s = (false, s).
Proof.
  unfold cw_strand, deliver_strand. destruct s as [u en lf st]. cbn [s_leaf s_stack s_uid s_env]. intros E.
  assert (EF : cw_frames rid st = 0) by lia. rewrite frames_none, frames_upd_other by exact EF.
  destruct lf as [t|r' x k| |u' k| |a b x1 x2 k|a b x k|uid b x k]; try reflexivity; cbn [cw_leaf] in E.
  - destruct (Nat.eqb r' rid); [discriminate | reflexivity].
  - rewrite (fill_slot_other rid v a), (fill_slot_other rid v b) by lia. reflexivity.
  - rewrite (fill_slot_other rid v a), (fill_slot_other rid v b) by lia. reflexivity.
  - rewrite (fill_slot_other rid v b) by lia. reflexivity.
Qed.
Lemma deliver_strand_req rid v s x k : s_leaf s = RReq rid x k ->
  deliver_strand rid v s = (true, mkRS (s_uid s) (setv x v (s_env s)) (RRun k) (s_stack s)).
Proof. intros E. unfold deliver_strand. rewrite E, Nat.eqb_refl. reflexivity. Qed.

Lemma cw_strands_0 r l : cw_strands r l = 0 -> Forall (fun s => cw_strand r s = 0) l.
Proof. induction l as [|y l IH]; cbn [cw_strands]; intros E; constructor; [lia | apply IH; lia]. Qed.
Lemma all_false {A} (l : list A) : existsb fst (map (fun x => (false, x)) l) = false /\ map snd (map (fun x => (false, x)) l) = l.
Proof. induction l as [|x l [E1 E2]]; cbn; [auto|]. rewrite E2. auto. Qed.
Lemma deliver_other rid v c : cw_rc rid c = 0 -> deliver rid v c = (false, c).
Proof.
  induction c as [b|a b IH|l IH|k a IH|k a IH] using rc_ind'; cbn [cw_rc deliver]; intros E; try (rewrite IH by exact E; reflexivity).
  - rewrite (map_ext_in _ (fun s => (false, s))).
    + destruct (all_false (b_strands b)) as [-> ->]. destruct b; reflexivity.
    + apply Forall_forall. eapply Forall_impl; [|apply cw_strands_0, E]. intros s. apply deliver_strand_other.
  - rewrite (map_ext_in _ (fun x => (false, x))).
    + destruct (all_false l) as [-> ->]. reflexivity.
    + apply Forall_forall. apply list_sum_map_0 in E. rewrite Forall_forall in *. intros x I. apply IH; [exact I | apply E, I].
Qed.

Lemma gone_slot_other rid q : cw_slot rid q = 0 -> gone_slot rid q = q.
Proof. unfold gone_slot, cw_slot. destruct q as [r'| |]; try reflexivity. destruct (Nat.eqb r' rid); [discriminate | reflexivity]. Qed.
Lemma close_frames_other rid s : cw_frames rid (s_stack s) = 0 -> close_frames rid s = s.
Proof. intros E. unfold close_frames. rewrite frames_upd_other by exact E. destruct s; reflexivity. Qed.
Lemma kill_waiter_other rid s : cw_strand rid s = 0 -> kill_waiter rid s = s.
Proof.
  unfold cw_strand, kill_waiter, waits_once. destruct s as [u en lf st]. cbn [s_uid s_env s_leaf s_stack]. intros E.
  destruct lf as [t|r' x k| |u' k| |a b x1 x2 k|a b x k|uid b x k]; cbn [cw_leaf] in E;
    try (rewrite ?(gone_slot_other rid a), ?(gone_slot_other rid b) by lia; apply close_frames_other; cbn [s_stack]; lia).
  destruct (Nat.eqb r' rid); [discriminate | apply close_frames_other; cbn [s_stack]; lia].
Qed.
Lemma dropreq_other rid c : cw_rc rid c = 0 -> dropreq rid c = c.
Proof.
  induction c as [b|a b IH|l IH|k a IH|k a IH] using rc_ind'; cbn [cw_rc dropreq]; intros E; try (rewrite IH by exact E; reflexivity).
  - rewrite map_id_on; [destruct b; reflexivity|]. eapply Forall_impl; [|apply cw_strands_0, E]. intros s. apply kill_waiter_other.
  - rewrite map_id_on; [reflexivity|]. apply list_sum_map_0 in E. rewrite Forall_forall in *. intros x I. apply IH; [exact I | apply E, I].
Qed.

Fixpoint strands_rc (c : rc) : list rstrand :=
  match c with
  | RBag b => b_strands b
  | RSeq a _ => strands_rc a
  | RPar l => concat (map strands_rc l)
  | RMapEff _ a | RMapEv _ a => strands_rc a
  end.
Definition strands_of (l : list kcmd) : list rstrand := concat (map (fun c => strands_rc (kc_rc c)) l).

Lemma cw_strands_concat r ll : cw_strands r (concat ll) = list_sum (map (cw_strands r) ll).
Proof. induction ll as [|x ll IH]; cbn [concat map]; rewrite ?ls_cons, ?ls_nil; [reflexivity|]. rewrite cw_strands_app, IH. reflexivity. Qed.
Lemma cw_rc_strands r c : cw_rc r c = cw_strands r (strands_rc c).
Proof.
  induction c as [b|a b IH|l IH|k a IH|k a IH] using rc_ind'; cbn [cw_rc strands_rc]; try exact IH; [reflexivity|].
  rewrite cw_strands_concat, map_map. f_equal. apply map_ext_in, Forall_forall, IH.
Qed.
Lemma cw_cmds_strands r l : cw_cmds r l = cw_strands r (strands_of l).
Proof.
  unfold cw_cmds, strands_of. rewrite cw_strands_concat, map_map.
  induction l as [|c l IH]; cbn [map]; rewrite ?ls_cons, ?ls_nil; [reflexivity|]. rewrite cw_rc_strands, IH. reflexivity.
Qed.

Lemma deliver_strands rid v c :
  strands_rc (snd (deliver rid v c)) = map (fun s => snd (deliver_strand rid v s)) (strands_rc c).
Proof.
  induction c as [b|a b IH|l IH|k a IH|k a IH] using rc_ind'; cbn [deliver]; try (destruct (deliver rid v a) as [t a']; exact IH).
  - cbn [snd strands_rc b_strands]. rewrite map_map. reflexivity.
  - cbn [snd strands_rc]. rewrite concat_map, !map_map. f_equal. apply map_ext_in, Forall_forall, IH.
Qed.
Lemma kdeliver_strands rid v l :
  strands_of (snd (kdeliver rid v l)) = map (fun s => snd (deliver_strand rid v s)) (strands_of l).
Proof.
  unfold kdeliver, strands_of. cbn [snd]. rewrite concat_map, !map_map. f_equal.
  induction l as [|c l IH]; cbn [map]; [reflexivity|]. rewrite <- IH. f_equal.
  pose proof (deliver_strands rid v (kc_rc c)) as D. destruct (deliver rid v (kc_rc c)) as [t c']. exact D.
Qed.

Lemma cw_zero_elsewhere r pre s post :
  cw_strands r (pre ++ s :: post) <= 1 -> 1 <= cw_strand r s ->
  Forall (fun s' => cw_strand r s' = 0) pre /\ Forall (fun s' => cw_strand r s' = 0) post.
Proof. rewrite cw_strands_app. cbn [cw_strands]. intros L S. split; apply cw_strands_0; lia. Qed.
Lemma map_other rid v l : Forall (fun s' => cw_strand rid s' = 0) l -> map (fun s => snd (deliver_strand rid v s)) l = l.
Proof. intros Z. apply map_id_on. eapply Forall_impl; [|exact Z]. intros s E. rewrite deliver_strand_other by exact E. reflexivity. Qed.

(* C02 on the reference semantics: in every reachable state of every app, the value the shell
   passes when resolving request [rid] is stored - unchanged - in the variable named by the strand
   that issued [rid], that strand resumes, and no other strand of the app changes at all *)
Theorem delivery_exact hs st pre s post rid x k v :
  reach hs st ->
  strands_of (ks_cmds st) = pre ++ s :: post -> s_leaf s = RReq rid x k ->
  strands_of (snd (kdeliver rid v (ks_cmds st))) =
  pre ++ mkRS (s_uid s) (setv x v (s_env s)) (RRun k) (s_stack s) :: post.
Proof.
  intros R ES EL. pose proof (reach_Inv hs st R rid) as [I1 _].
  rewrite cw_cmds_strands, ES in I1.
  assert (S1 : 1 <= cw_strand rid s) by (unfold cw_strand; rewrite EL; cbn [cw_leaf]; rewrite Nat.eqb_refl; apply Nat.le_add_r).
  destruct (cw_zero_elsewhere rid pre s post I1 S1) as [Zp Zq].
  rewrite kdeliver_strands, ES, map_app. cbn [map].
  rewrite (map_other rid v pre Zp), (map_other rid v post Zq), (deliver_strand_req rid v s x k EL). reflexivity.
Qed.

(* a request id names the strand that issued it: the strand that emits a one-shot request is the one
   that then waits on the id the effect carries, and that id was never used before *)
Lemma request_owner f u en tg e x k st nu n acc o :
  run_strand (S f) (mkRS u en (RRun (TReq tg e x k)) st) nu n acc o =
  Some (Some (mkRS u en (RReq n x k) st), acc, nu, S n, ro_app o (mkRO [mkRE tg (eval en e) [] n 1] [])).
Proof. reflexivity. Qed.
Theorem fresh_ids hs st : reach hs st -> forall r, ks_n st <= r -> cw_cmds r (ks_cmds st) = 0.
Proof. intros R rr L. destruct (reach_Inv hs st R rr) as [_ I2]. lia. Qed.
