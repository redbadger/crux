(* Theorems about the host of the LEGACY capability API (Legacy.v: QueuingExecutor::run_all with its
   did_some_work flag, CapabilityContext spawn / notify_shell / update_app / request_from_shell /
   stream_from_shell, Core::process): the same C01 / C03 statements as for the command-API host.
     - run_all returns only with the spawn queue and the ready queue empty, and the event loop only with no
       event unapplied (a call runs to quiescence);
     - the pipeline (events applied ++ events waiting) only ever grows at its end: first in, first out and
       exactly once between update_app and update;
     - the request channel only grows during a call and the call hands over all of it;
     - the trace predicates of Check.v hold of every trace of the legacy host: [C03_log], and [C01_probes] when
       the app has no handler for the probe event.
   For every handler table (app), every core state and every fuel; the loops inside a function run on the fuel [LF]
   (Legacy.v), which is part of the model. *)
From Coq Require Import List Arith Bool Lia.
From Crux Require Import Rt.Lang Rt.Rt Rt.Host Rt.Legacy Rt.Check Rt.CheckFacts.
Import ListNotations.

Definition lextends {A} (a b : list A) : Prop := exists l, b = a ++ l.
Lemma lext_refl {A} (a : list A) : lextends a a. Proof. exists []. rewrite app_nil_r. reflexivity. Qed.
Lemma lext_trans {A} (a b c : list A) : lextends a b -> lextends b c -> lextends a c.
Proof. intros [l1 ->] [l2 ->]. exists (l1 ++ l2). rewrite app_assoc. reflexivity. Qed.

(* what a step of the executor may do to the three channels the theorems are about *)
Definition Lst (k k' : lcore) : Prop :=
  l_log k' = l_log k /\ lextends (l_events k) (l_events k') /\ lextends (l_out k) (l_out k').
Lemma Lst_refl k : Lst k k. Proof. repeat split; apply lext_refl. Qed.
Lemma Lst_trans a b c : Lst a b -> Lst b c -> Lst a c.
Proof. intros (A1 & A2 & A3) (B1 & B2 & B3). repeat split; [congruence | eapply lext_trans; eauto | eapply lext_trans; eauto]. Qed.
Lemma Lst_same k k' : l_log k' = l_log k -> l_events k' = l_events k -> l_out k' = l_out k -> Lst k k'.
Proof. intros E1 E2 E3. repeat split; [exact E1 | rewrite E2; apply lext_refl | rewrite E3; apply lext_refl]. Qed.
Lemma Lst_push_ev e k : Lst k (lpush_ev e k).
Proof. repeat split; [exists [e]; reflexivity | apply lext_refl]. Qed.
Lemma Lst_push_out r k : Lst k (lpush_out r k).
Proof. repeat split; [apply lext_refl | exists [r]; reflexivity]. Qed.
Lemma Lst_ucell c f k : Lst k (ucell c f k). Proof. apply Lst_same; reflexivity. Qed.

Lemma lpoll_Lst : forall fuel q fs k r k', lpoll fuel q fs k = Some (r, k') -> Lst k k'.
Proof.
  induction fuel as [|f IH]; intros q fs k r k' E; [discriminate|]. cbn [lpoll] in E.
  destruct (lf_leaf fs) as [t|sent tg v c x t'| |n t'].
  - destruct t; try (apply IH in E; exact E).
    + destruct (lf_stack fs); [inversion E; subst; apply Lst_refl | apply IH in E; exact E].
    + apply IH in E. eapply Lst_trans; [apply Lst_push_ev | exact E].
    + apply IH in E. eapply Lst_trans; [apply Lst_push_out | exact E].
  - set (k1 := if sent then k else lpush_out (mkLR tg v 1 c false) k) in *.
    assert (S1 : Lst k k1) by (subst k1; destruct sent; [apply Lst_refl | apply Lst_push_out]).
    destruct (lc_queue (gcell c k1)).
    + inversion E; subst. eapply Lst_trans; [exact S1 | apply Lst_ucell].
    + apply IH in E. eapply Lst_trans; [exact S1|]. eapply Lst_trans; [apply Lst_ucell | exact E].
  - destruct (lf_stack fs) as [|fr rest]; [inversion E; subst; apply Lst_refl|].
    set (k1 := if lf_sent fr then k else lpush_out (mkLR (lf_tg fr) (lf_v fr) 2 (lf_cell fr) false) k) in *.
    assert (S1 : Lst k k1) by (subst k1; destruct (lf_sent fr); [apply Lst_refl | apply Lst_push_out]).
    destruct (lc_queue (gcell (lf_cell fr) k1)).
    + destruct (lc_tx (gcell (lf_cell fr) k1)).
      * inversion E; subst. eapply Lst_trans; [exact S1 | apply Lst_ucell].
      * apply IH in E. eapply Lst_trans; [exact S1|]. eapply Lst_trans; [apply Lst_ucell | exact E].
    + apply IH in E. eapply Lst_trans; [exact S1|]. eapply Lst_trans; [apply Lst_ucell | exact E].
  - destruct n; [apply IH in E; exact E|]. inversion E; subst. apply Lst_same; reflexivity.
Qed.

(* the two components of an equation between results; [injection] and [inversion] would normalise its
   terms, the runs with the fuel [LF] among them, and run out of memory *)
Ltac some_pair E := match type of E with Some (?a, ?b) = Some (?c, ?d) =>
  let X := fresh "X" in let Y := fresh "Y" in assert (X : a = c) by congruence; assert (Y : b = d) by congruence; clear E end.
Lemma lrun_task_Lst q k r k' : lrun_task q k = Some (r, k') -> Lst k k'.
Proof.
  unfold lrun_task. destruct (nth_error (l_ent k) q) as [[[fs|]|n]|]; try (intros E; some_pair E; subst; apply Lst_refl).
  destruct (lpoll LF q fs k) as [[[fs'|] k1]|] eqn:E1; [| |discriminate]; apply lpoll_Lst in E1; intros E; some_pair E; subst;
    (eapply Lst_trans; [exact E1 | apply Lst_same; reflexivity]).
Qed.
Lemma lrun_task_not_polled q k r k' : lrun_task q k = Some (r, k') -> r = LMissing \/ r = LUnavailable -> k' = k.
Proof.
  unfold lrun_task. destruct (nth_error (l_ent k) q) as [[[fs|]|n]|]; try (intros E _; some_pair E; subst; reflexivity).
  destruct (lpoll LF q fs k) as [[[fs'|] k1]|]; [| |discriminate]; intros E [X|X]; some_pair E; subst; discriminate.
Qed.

Lemma lspawn_pass_spec : forall fuel k did k' did', lspawn_pass fuel k did = Some (k', did') ->
  Lst k k' /\ l_spawn k' = [] /\ (did' = false -> did = false /\ k' = k).
Proof.
  induction fuel as [|f IH]; intros k did k' did' E; [discriminate|]. cbn [lspawn_pass] in E.
  destruct (l_spawn k) as [|t rest] eqn:ES.
  - inversion E; subst. split; [apply Lst_refl | split; [exact ES | intros ->; split; reflexivity]].
  - set (k0 := mkLK (l_cells k) (l_ent k) (l_next k) rest (l_ready k) (l_events k) (l_out k) (l_log k) (l_reqs k)) in *.
    destruct (lslab_insert t k0) as [q k1] eqn:EI.
    assert (S1 : Lst k k1).
    { unfold lslab_insert in EI. destruct (Nat.eqb (l_next k0) (length (l_ent k0))); inversion EI; subst; apply Lst_same; reflexivity. }
    destruct (lrun_task q k1) as [[r k2]|] eqn:ER; [|discriminate].
    apply lrun_task_Lst in ER. destruct (IH _ _ _ _ E) as (S3 & Sp & Sd).
    split; [eapply Lst_trans; [exact S1 | eapply Lst_trans; [exact ER | exact S3]] | split; [exact Sp|]].
    intros ->. destruct (Sd eq_refl) as [X _]. discriminate.
Qed.
Lemma lready_pass_spec : forall fuel k did k' did', lready_pass fuel k did = Some (k', did') ->
  Lst k k' /\ l_ready k' = [] /\ (did' = false -> did = false /\ l_spawn k' = l_spawn k).
Proof.
  induction fuel as [|f IH]; intros k did k' did' E; [discriminate|]. cbn [lready_pass] in E.
  destruct (l_ready k) as [|q rest] eqn:ER.
  - inversion E; subst. split; [apply Lst_refl | split; [exact ER | intros ->; split; reflexivity]].
  - set (k0 := mkLK (l_cells k) (l_ent k) (l_next k) (l_spawn k) rest (l_events k) (l_out k) (l_log k) (l_reqs k)) in *.
    destruct (lrun_task q k0) as [[r k1]|] eqn:ET; [|discriminate].
    assert (S1 : Lst k k1) by (eapply Lst_trans; [apply Lst_same; reflexivity | exact (lrun_task_Lst _ _ _ _ ET)]).
    pose proof (lrun_task_not_polled _ _ _ _ ET) as NP.
    (* whatever the task did, the pass goes on from [k1], or from [k1] with [q] queued again; only a task that
       was not polled leaves the flag alone, and it left the core as it was *)
    destruct r; destruct (IH _ _ _ _ E) as (S3 & Sp & Sd);
      (split; [eapply Lst_trans; [exact S1|]; eapply Lst_trans; [|exact S3]; apply Lst_same; reflexivity | split; [exact Sp|]]);
      intros X; destruct (Sd X) as [D Ss]; try discriminate D.
    + rewrite (NP (or_introl eq_refl)) in Ss. split; [exact D | exact Ss].
    + rewrite (NP (or_intror eq_refl)) in Ss. split; [exact D | exact Ss].
Qed.

Theorem lrun_all_spec : forall fuel k k', lrun_all fuel k = Some k' -> Lst k k' /\ l_spawn k' = [] /\ l_ready k' = [].
Proof.
  induction fuel as [|f IH]; intros k k' E; [discriminate|]. cbn [lrun_all] in E.
  destruct (lspawn_pass LF k false) as [[k1 d1]|] eqn:E1; [|discriminate].
  destruct (lready_pass LF k1 d1) as [[k2 d2]|] eqn:E2; [|discriminate].
  destruct (lspawn_pass_spec _ _ _ _ _ E1) as (S1 & Sp1 & _).
  destruct (lready_pass_spec _ _ _ _ _ E2) as (S2 & Sr2 & Sd2).
  destruct d2.
  - destruct (IH _ _ E) as (S3 & A & B). split; [eapply Lst_trans; [exact S1 | eapply Lst_trans; [exact S2 | exact S3]] | split; assumption].
  - inversion E; subst. destruct (Sd2 eq_refl) as [_ Ss]. split; [eapply Lst_trans; [exact S1 | exact S2] | split; [rewrite Ss; exact Sp1 | exact Sr2]].
Qed.

Definition lpipeline (k : lcore) : list event := l_log k ++ l_events k.
Lemma Lst_pipeline k k' : Lst k k' -> lextends (lpipeline k) (lpipeline k').
Proof. intros (E1 & [l E2] & _). unfold lpipeline. rewrite E1, E2. exists l. rewrite app_assoc. reflexivity. Qed.
Lemma fold_spawn_channels v : forall ts kx,
  l_log (fold_left (fun kk t => lpush_spawn (mkLF [v] (LLRun t) []) kk) ts kx) = l_log kx /\
  l_events (fold_left (fun kk t => lpush_spawn (mkLF [v] (LLRun t) []) kk) ts kx) = l_events kx /\
  l_out (fold_left (fun kk t => lpush_spawn (mkLF [v] (LLRun t) []) kk) ts kx) = l_out kx.
Proof.
  induction ts as [|t ts IH]; intros kx; cbn [fold_left]; [auto|].
  destruct (IH (lpush_spawn (mkLF [v] (LLRun t) []) kx)) as (A & B & C). rewrite A, B, C. auto.
Qed.
Lemma lupdate_channels hs e k : l_log (lupdate hs e k) = l_log k ++ [e] /\ l_events (lupdate hs e k) = l_events k /\ l_out (lupdate hs e k) = l_out k.
Proof.
  unfold lupdate.
  match goal with |- context[fold_left _ ?ts ?k0] => destruct (fold_spawn_channels (v_val e) ts k0) as (A & B & C) end.
  rewrite A, B, C. auto.
Qed.

Theorem lprocess_spec : forall fuel hs k k', lprocess fuel hs k = Some k' ->
  lextends (lpipeline k) (lpipeline k') /\ lextends (l_out k) (l_out k') /\
  l_spawn k' = [] /\ l_ready k' = [] /\ l_events k' = [].
Proof.
  induction fuel as [|f IH]; intros hs k k' E; [discriminate|]. cbn [lprocess] in E.
  destruct (lrun_all LF k) as [k1|] eqn:E1; [|discriminate].
  destruct (lrun_all_spec _ _ _ E1) as (S1 & Sp & Sr).
  destruct (l_events k1) as [|e rest] eqn:EV.
  - inversion E; subst. split; [apply Lst_pipeline; exact S1 | split; [apply S1 | auto]].
  - set (k2 := mkLK (l_cells k1) (l_ent k1) (l_next k1) (l_spawn k1) (l_ready k1) rest (l_out k1) (l_log k1) (l_reqs k1)) in *.
    destruct (IH _ _ _ E) as (P3 & O3 & R3).
    destruct (lupdate_channels hs e k2) as (U1 & U2 & U3).
    split; [|split; [|exact R3]].
    + eapply lext_trans; [apply Lst_pipeline; exact S1|]. eapply lext_trans; [|exact P3].
      unfold lpipeline. rewrite U1, U2, EV. subst k2; cbn [l_log l_events]. exists []. rewrite app_nil_r, <- app_assoc. reflexivity.
    + eapply lext_trans; [apply S1|]. rewrite U3 in O3. exact O3.
Qed.

Theorem ltake_out_hands_over_everything code k :
  fst (ltake_out code k) = OCall code (map loeff (l_out k)) (l_log k) /\
  l_out (snd (ltake_out code k)) = [] /\ l_reqs (snd (ltake_out code k)) = l_reqs k ++ l_out k.
Proof. unfold ltake_out. cbn. auto. Qed.

Lemma lprocess_log fuel hs k k' : lprocess fuel hs k = Some k' -> lextends (l_log k) (l_log k').
Proof.
  intros E. destruct (lprocess_spec fuel hs k k' E) as ([l P] & _ & _ & _ & EV).
  unfold lpipeline in P. rewrite EV, app_nil_r in P. exists (l_events k ++ l). rewrite P, app_assoc. reflexivity.
Qed.
Lemma lwake_cell_log c k : l_log (lwake_cell c k) = l_log k.
Proof. unfold lwake_cell. destruct (lc_waker (gcell c k)); reflexivity. Qed.

Lemma lstep_inv hs a k o k' : lstep hs a k = Some (o, k') ->
  (k' = k /\ ((exists c, o = OResolve c) \/ (exists n, o = OLive n) \/
              (exists c, o = OCall (S c) [] (l_log k)) /\ forall tg v, a <> AEvent tg v)) \/
  (o = ONone /\ l_log k' = l_log k) \/
  (exists k1 k2, lprocess LF hs k1 = Some k2 /\ (o, k') = ltake_out 0 k2 /\
                 match a with AEvent tg v => k1 = lupdate hs (mkEv tg v []) k | _ => l_log k1 = l_log k end).
Proof.
  assert (Call : forall k1, match a with AEvent tg v => k1 = lupdate hs (mkEv tg v []) k | _ => l_log k1 = l_log k end ->
            match lprocess LF hs k1 with None => None | Some k2 => Some (ltake_out 0 k2) end = Some (o, k') ->
            exists k1 k2, lprocess LF hs k1 = Some k2 /\ (o, k') = ltake_out 0 k2 /\
                 match a with AEvent tg v => k1 = lupdate hs (mkEv tg v []) k | _ => l_log k1 = l_log k end).
  { intros k1 H1 E. destruct (lprocess LF hs k1) as [k2|] eqn:P; [|discriminate]. exists k1, k2. split; [exact P | split; [congruence | exact H1]]. }
  assert (Same : forall x, Some (x, k) = Some (o, k') -> k' = k /\ o = x) by (intros x E; split; congruence).
  destruct a; cbn [lstep]; intros E; try (right; left; destruct (Same _ E) as [-> ->]; split; reflexivity).
  - destruct (find_lr tg v occ 0 (l_reqs k)) as [i|]; [|left; destruct (Same _ E) as [-> ->]; eauto].
    set (r := nth i (l_reqs k) _) in *.
    destruct (lr_dropped r); [left; destruct (Same _ E) as [-> ->]; eauto|].
    assert (Rej : forall c, Some (OCall (S c) [] (l_log k), k) = Some (o, k') ->
              k' = k /\ ((exists c, o = OResolve c) \/ (exists n, o = OLive n) \/
                (exists c, o = OCall (S c) [] (l_log k)) /\ forall tg' v', AResolve tg v occ out <> AEvent tg' v'))
      by (intros c Ec; destruct (Same _ Ec) as [-> ->]; split; [reflexivity | right; right; split; [eauto | discriminate]]).
    destruct (lr_kind r) as [|[|[|n]]]; [left; eauto | right; right | | left; eauto].
    + apply Call in E; [exact E|]. unfold lset_req. cbn [l_log]. destruct (lc_alive _); [rewrite lwake_cell_log|]; reflexivity.
    + destruct (lc_alive _); [right; right; apply Call in E; [exact E | rewrite lwake_cell_log; reflexivity] | left; eauto].
  - right; left. destruct (find_lr tg v occ 0 (l_reqs k)) as [i|]; [|destruct (Same _ E) as [-> ->]; split; reflexivity].
    destruct (lr_dropped _); [destruct (Same _ E) as [-> ->]; split; reflexivity|].
    injection E as <- <-. split; [reflexivity|]. unfold lset_req. cbn [l_log].
    destruct (lr_kind _) as [|[|[|n]]]; reflexivity.
  - right; right. apply Call in E; [exact E | reflexivity].
  - left. destruct (Same _ E) as [-> ->]. eauto.
Qed.

Theorem lcrun_log_ok : forall acts hs k os, lcrun hs acts k = Some os -> C03_log acts os (l_log k) = true.
Proof.
  induction acts as [|a acts IH]; intros hs k os E; cbn [lcrun] in E.
  - assert (os = []) by congruence. subst. reflexivity.
  - destruct (lstep hs a k) as [[o k']|] eqn:E1; [|discriminate].
    destruct (lcrun hs acts k') as [os'|] eqn:E2; [|discriminate].
    assert (X : os = o :: os') by congruence. subst os. clear E. apply IH in E2.
    apply lstep_inv in E1 as [(-> & [[c ->]|[[n ->]|([c ->] & Na)]]) | [(-> & El) | (k1 & k2 & P & Y & H1)]].
    + exact E2.
    + exact E2.
    + rewrite <- (app_nil_r (l_log k)) at 1. rewrite C03_log_call; [rewrite app_nil_r; exact E2|].
      destruct a; try exact I. destruct (Na _ _ eq_refl).
    + cbn [C03_log]. rewrite <- El. exact E2.
    + unfold ltake_out in Y. inversion Y; subst o k'; clear Y. cbn [l_log] in E2.
      destruct (lprocess_log _ _ _ _ P) as [l El]. rewrite El in *.
      destruct a; try (rewrite H1 in *; rewrite C03_log_call; [exact E2 | exact I]).
      subst k1. rewrite (proj1 (lupdate_channels _ _ _)), <- app_assoc in *. rewrite C03_log_call; [exact E2 | exists l; reflexivity].
Qed.
Corollary under_legacy_core_log_ok hs acts os : under_legacy_core hs acts = Some os -> C03_log acts os [] = true.
Proof. unfold under_legacy_core. intros E. apply (lcrun_log_ok acts hs lcore0 os E). Qed.

Definition lidle (k : lcore) : Prop := l_spawn k = [] /\ l_ready k = [] /\ l_events k = [] /\ l_out k = [].
Lemma LF_S : exists n, LF = S n. Proof. exists 399. reflexivity. Qed.
Lemma lrun_all_idle f k : l_spawn k = [] -> l_ready k = [] -> lrun_all (S f) k = Some k.
Proof.
  intros Es Er. cbn [lrun_all]. destruct LF_S as [n ->]. cbn [lspawn_pass]. rewrite Es. cbn [lready_pass]. rewrite Er. reflexivity.
Qed.
Lemma lprocess_of_idle f hs k : l_spawn k = [] -> l_ready k = [] -> l_events k = [] -> lprocess (S f) hs k = Some k.
Proof.
  intros Es Er Ee. cbn [lprocess]. destruct LF_S as [n En]. rewrite En. rewrite (lrun_all_idle n k Es Er). rewrite Ee. reflexivity.
Qed.
Lemma ltake_out_idle code k2 : l_spawn k2 = [] -> l_ready k2 = [] -> l_events k2 = [] -> lidle (snd (ltake_out code k2)).
Proof. intros A B C. unfold ltake_out, lidle. cbn. auto. Qed.

Theorem lcrun_probes_ok : forall hs, llookup 99 hs = [] -> forall acts k os prev,
  lcrun hs acts k = Some os ->
  match prev with Some plog => lidle k /\ plog = l_log k | None => True end ->
  C01_probes acts os prev = true.
Proof.
  intros hs Hp. induction acts as [|a acts IH]; intros k os prev E Pv; cbn [lcrun] in E.
  - assert (os = []) by congruence. subst. reflexivity.
  - destruct (lstep hs a k) as [[o k']|] eqn:E1; [|discriminate].
    destruct (lcrun hs acts k') as [os'|] eqn:E2; [|discriminate].
    assert (X : os = o :: os') by congruence. subst os. clear E.
    apply lstep_inv in E1 as [(-> & [[c ->]|[[n ->]|([c ->] & _)]]) | [(-> & _) | (k1 & k2 & P & Y & H1)]].
    1-3: exact (IH k os' prev E2 Pv).
    + exact (IH k' os' None E2 I).
    + destruct (lprocess_spec _ _ _ _ P) as (_ & _ & A & B & C). pose proof (ltake_out_idle 0 k2 A B C) as Id.
      rewrite <- Y in Id. unfold ltake_out in Y. inversion Y; subst o; clear Y. rewrite C01_probes_call.
      rewrite (IH k' os' (Some (l_log k2)) E2) by (split; [exact Id | subst k'; reflexivity]). rewrite andb_true_r.
      destruct (is_probe a) eqn:Pa; [|reflexivity]. destruct prev as [plog|]; [|reflexivity].
      apply is_probe_true in Pa. subst a k1. destruct Pv as ((Is & Ir & Ie & Io) & ->).
      (* a probe on an idle core: update spawns nothing, the executor has nothing to run *)
      unfold lupdate in P. cbn [v_maps v_tag] in P. rewrite Hp in P. cbn [fold_left] in P.
      destruct LF_S as [n En]. rewrite En, lprocess_of_idle in P by assumption.
      assert (K : k2 = mkLK (l_cells k) (l_ent k) (l_next k) (l_spawn k) (l_ready k) (l_events k) (l_out k) (l_log k ++ [mkEv 99 0 []]) (l_reqs k)) by congruence.
      rewrite K. cbn [l_out l_log]. rewrite Io. apply list_eqb_refl, event_eqb_refl.
Qed.
Corollary C01_ok_holds_of_legacy_model hs acts os : llookup 99 hs = [] ->
  under_legacy_core hs acts = Some os -> C01_probes acts os None = true.
Proof. intros Hp E. apply (lcrun_probes_ok hs Hp acts lcore0 os None E I). Qed.
