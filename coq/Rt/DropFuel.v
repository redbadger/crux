(* Drop glue always has enough fuel.  drop_fs / drop_cmd recurse through the heap (a hosting future drops the command
   it hosts, which drops its tasks, ...), so they carry a fuel; the runtime model starts every drop with
   [dfuel H] = 2 * (number of commands) + 2.  A task only hosts commands created after its own command (the first
   clause of the order invariant), dropping never adds a task to any command, and commands beyond the table have no
   tasks: so the ids along a chain of drops strictly increase below the table size and the fuel cannot run out -
   more fuel changes nothing.  The model has no bound on the nesting depth of drops. *)
From Coq Require Import List Arith Bool Lia.
From Crux Require Import Rt.Lang Rt.Rt Rt.Tables Rt.Frame Rt.EvictHost.
Import ListNotations.

Definition Rna (H H' : heap) : Prop := forall c t, tasks_of (gcmd c H') t -> tasks_of (gcmd c H) t.
Lemma Rna_closed : drop_closed Rna.
Proof.
  apply (pointwise_drop_closed (fun cm cm' => forall t, tasks_of cm' t -> tasks_of cm t)).
  - intros cm t T; exact T.
  - intros a b c A B t T. apply A, B, T.
  - intros l cm t T. exact T.
  - intros a cm t T. exact T.
  - intros cm t T. rewrite dropped_eq in T. destruct T as [[]|[]].
Qed.

(* tasks host later commands only (first clause of OrdH), and no command from W on has a task *)
Definition OrdT (H : heap) : Prop := forall c t, tasks_of (gcmd c H) t -> host_gt c (t_fs t).
Definition NoTasksFrom (W : nat) (H : heap) : Prop := forall c t, W <= c -> ~ tasks_of (gcmd c H) t.
Definition PW (W : nat) (H : heap) : Prop := OrdT H /\ NoTasksFrom W H.
Lemma PW_Rna W H H' : Rna H H' -> PW W H -> PW W H'.
Proof. intros R (O & N). split; [intros c t T; apply O, R, T | intros c t L T; apply (N c t L), R, T]. Qed.
Lemma PW_start H : OrdH H -> PW (length (cmds H)) H.
Proof. intros (O & _). split; [exact O|]. intros c t L T. rewrite (gcmd_beyond c H L) in T. destruct T as [[]|[]]. Qed.

Lemma fold_left_ext_inv {A} (P : heap -> Prop) (g1 g2 : heap -> A -> heap) (l : list A) :
  (forall H a, In a l -> P H -> g1 H a = g2 H a) -> (forall H a, In a l -> P H -> P (g2 H a)) ->
  forall H, P H -> fold_left g1 l H = fold_left g2 l H.
Proof.
  induction l as [|a l IH]; intros E Pr H PH; [reflexivity|]. cbn [fold_left].
  rewrite (E H a (or_introl eq_refl) PH). apply IH.
  - intros H' a' I' P'. apply E; [right; exact I' | exact P'].
  - intros H' a' I' P'. apply Pr; [right; exact I' | exact P'].
  - apply Pr; [left; reflexivity | exact PH].
Qed.

(* The measure.  Dropping command x < W goes at most through x, a task of x, the command x' > x that task hosts, a
   task of x', ...: two steps for every id from x up to W - 1, and one for a command that has no task.  Hence
   drop_cmd of x needs 2 * (W - x) + 1, and drop_fs of a future that hosts x one more; any other future needs one
   step, for itself.  dfuel H covers both with W the table's size. *)
Definition fs_need (W : nat) (fs : fstate) (f : nat) : Prop :=
  1 <= f /\ match f_leaf fs with LHost x _ _ _ => 2 * (W - x) + 2 <= f | _ => True end.

Lemma Rna_drop_task f t Hh : Rna Hh (drop_task f Hh t).
Proof. eapply (dc_trans Rna_closed); [apply (R_drop_fs Rna_closed) | apply (R_kill_flag Rna_closed)]. Qed.

Theorem drop_one_more_changes_nothing : forall W f,
  (forall x H, PW W H -> 2 * (W - x) + 1 <= f -> drop_cmd (S f) x H = drop_cmd f x H) /\
  (forall fs H, PW W H -> fs_need W fs f -> drop_fs (S f) fs H = drop_fs f fs H).
Proof.
  intros W. induction f as [|f [IHc IHf]]; split.
  - intros x H _ L. lia.
  - intros fs H _ (L & _). lia.
  - (* drop_cmd (S (S f)) = drop_cmd (S f): the tasks are dropped with fuel S f resp. f *)
    intros x H P L. rewrite !drop_cmd_S.
    set (H2 := fold_left (fun Hh e => drop_req e Hh) (c_eff (gcmd x H)) (ucmd x dropped H)).
    assert (P2 : PW W H2).
    { apply (PW_Rna W H); [|exact P]. eapply (dc_trans Rna_closed); [apply (dc_dropped Rna_closed)|].
      apply (R_fold (dc_refl Rna_closed) (dc_trans Rna_closed)). intros; apply (R_drop_req Rna_closed). }
    (* what a task of x needs is covered by f *)
    assert (T : forall t Hh, tasks_of (gcmd x H) t -> PW W Hh -> drop_task (S f) Hh t = drop_task f Hh t).
    { intros t Hh T Ph. unfold drop_task. rewrite (IHf (t_fs t) Hh Ph); [reflexivity|]. destruct P as (O & N).
      assert (Lx : x < W) by (destruct (le_lt_dec W x) as [Ge|Lt]; [exfalso; exact (N x t Ge T) | exact Lt]).
      pose proof (O x t T) as G. unfold host_gt in G. unfold fs_need. split; [lia|].
      destruct (f_leaf (t_fs t)); try exact I. lia. }
    rewrite (fold_left_ext_inv (PW W) (drop_task (S f)) (drop_task f) (c_spawnq (gcmd x H))) with (H := H2);
      [|intros Hh t I; apply T; right; exact I | intros Hh t _; apply PW_Rna, Rna_drop_task | exact P2].
    apply (fold_left_ext_inv (PW W)).
    + intros Hh [t|n] I Ph; [apply T; [left; exact I | exact Ph] | reflexivity].
    + intros Hh [t|n] I Ph; [exact (PW_Rna W _ _ (Rna_drop_task f t Hh) Ph) | exact Ph].
    + apply (PW_Rna W H2); [|exact P2]. apply (R_fold (dc_refl Rna_closed) (dc_trans Rna_closed)), Rna_drop_task.
  - (* drop_fs (S (S f)) = drop_fs (S f): only a hosting leaf looks at the fuel *)
    intros fs H P (L1 & Lh). rewrite !drop_fs_S.
    destruct (f_leaf fs); try reflexivity.
    rewrite (IHc cid H P) by lia. reflexivity.
Qed.

Theorem drop_cmd_fuel_suffices : forall n x H, OrdH H -> drop_cmd (n + dfuel H) x H = drop_cmd (dfuel H) x H.
Proof.
  intros n x H O. apply (stable_from (fun f => drop_cmd f x H)). intros f L. unfold dfuel in L.
  apply (proj1 (drop_one_more_changes_nothing (length (cmds H)) f)); [apply PW_start, O | lia].
Qed.
Theorem drop_fs_fuel_suffices : forall n fs H, OrdH H -> drop_fs (n + dfuel H) fs H = drop_fs (dfuel H) fs H.
Proof.
  intros n fs H O. apply (stable_from (fun f => drop_fs f fs H)). intros f L. unfold dfuel in L.
  apply (proj2 (drop_one_more_changes_nothing (length (cmds H)) f)); [apply PW_start, O|].
  split; [lia|]. destruct (f_leaf fs); try exact I. lia.
Qed.
