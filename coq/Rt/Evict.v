(* Eviction soundness (C07): when run_task answers Cancelled, the task was not blocked on anything the
   shell or another task can still complete: a pending poll registers the poll's waker in every open
   cell of the future's wait-set ("poll_registers"), and a registered waker makes run_task answer
   Suspended.  Proved for every leaf future of the task language except the hosting leaf. *)
From Coq Require Import List Arith Bool.
From Crux Require Import Rt.Lang Rt.Rt Rt.Tables Rt.Frame.
Import ListNotations.

(* the bounds are there because run_task's [holds] scans the tables as lists, while gch and gtf answer with a
   default beyond their end *)
Definition registered (ch : nat) (w : waker) (H : heap) : Prop :=
  ch_wk (gch ch H) = Some w /\ ch < length (chans H).
Definition joined (u : nat) (w : waker) (H : heap) : Prop := In w (tf_joinw (gtf u H)) /\ u < length (tfl H).
Definition sub_ok (w : waker) (q : subreq) (H : heap) : Prop :=
  match q with SQ _ false _ _ ch => registered ch w H | SL _ _ _ ch => registered ch w H
  | SJ u => In w (tf_joinw (gtf u H)) /\ u < length (tfl H) | _ => True end.
Definition woken_of (w : waker) (H : heap) : Prop :=
  match w with WCmd _ _ g => getd false g (woken H) = true | WExec _ => True end.

(* what a Pending poll guarantees about the state it leaves behind *)
Definition post (w : waker) (fs' : fstate) (H' : heap) : Prop :=
  match f_leaf fs' with
  | LRun _ => False
  | LReq _ dead _ _ ch _ _ => dead = false -> registered ch w H'
  | LStr => match f_stack fs' with fr :: _ => registered (fr_ch fr) w H' | [] => False end
  | LJoin u _ => In w (tf_joinw (gtf u H')) /\ u < length (tfl H')
  | LBoth a b _ _ _ | LRace a b _ _ => sub_ok w a H' /\ sub_ok w b H'
  | LYield _ _ => woken_of w H'
  | LLeg _ _ _ ch _ _ => registered ch w H'
  | LHost _ _ _ _ => True
  end.

Lemma registered_chan_reg ch w H : registered ch w (chan_reg ch w H).
Proof. unfold registered, chan_reg. rewrite gch_uch_same. split; [reflexivity | apply lt_length_updd]. Qed.
Lemma joined_utf_new u w H :
  joined u w (utf u (fun tf => mkTF (tf_fin tf) (tf_abort tf) (tf_alive tf) (tf_joinw tf ++ [w])) H).
Proof. split; [rewrite gtf_utf_same; apply in_or_app; right; left; reflexivity | apply lt_length_updd]. Qed.

Definition keeps (w : waker) (H H' : heap) : Prop :=
  (forall ch, registered ch w H -> registered ch w H') /\ (forall u, joined u w H -> joined u w H').
Lemma keeps_refl w H : keeps w H H. Proof. split; auto. Qed.
Lemma keeps_trans w a b c : keeps w a b -> keeps w b c -> keeps w a c.
Proof. intros (A1 & A2) (B1 & B2). split; auto. Qed.
Lemma keeps_same w H H' : chans H' = chans H -> tfl H' = tfl H -> keeps w H H'.
Proof. unfold keeps, registered, joined, gch, gtf. intros -> ->. auto. Qed.
Lemma keeps_uch w c f H : (forall x, ch_wk x = Some w -> ch_wk (f x) = Some w) -> keeps w H (uch c f H).
Proof.
  intros Hf. split; [|intros u J; exact J]. intros ch (E & L). split; [|eapply Nat.lt_le_trans; [exact L | apply length_updd]].
  destruct (Nat.eq_dec c ch) as [->|Hne]; [rewrite gch_uch_same; apply Hf; exact E | rewrite gch_uch_other by exact Hne; exact E].
Qed.
Lemma keeps_chan_reg w c H : keeps w H (chan_reg c w H). Proof. apply keeps_uch. auto. Qed.
Lemma keeps_chan_drop_rx w c H : keeps w H (chan_drop_rx c H). Proof. apply keeps_uch. auto. Qed.
Lemma keeps_join w u w' H : keeps w H (utf u (fun tf => mkTF (tf_fin tf) (tf_abort tf) (tf_alive tf) (tf_joinw tf ++ [w'])) H).
Proof.
  split; [intros ch R; exact R|]. intros u0 (I & L). split; [|eapply Nat.lt_le_trans; [exact L | apply length_updd]].
  destruct (Nat.eq_dec u u0) as [->|Hne]; [rewrite gtf_utf_same; apply in_or_app; left; exact I | rewrite gtf_utf_other by exact Hne; exact I].
Qed.
Lemma sub_ok_keep w q H H' : keeps w H H' -> sub_ok w q H -> sub_ok w q H'.
Proof. intros (K & KJ). unfold sub_ok. destruct q as [s [|] t v c|m|s t v c|u]; auto. apply KJ. Qed.

Lemma req_poll_spec c w sent dead tg v ch H o s' d' H' : req_poll c w sent dead tg v ch H = (o, s', d', H') ->
  keeps w H H' /\ (o = None -> d' = false -> registered ch w H').
Proof.
  unfold req_poll. destruct dead; [intros [= <- <- <- <-]; split; [apply keeps_refl | discriminate]|].
  destruct (negb sent); [|destruct (ch_buf (gch ch H)); [destruct (ch_tx (gch ch H))|]]; intros [= <- <- <- <-];
    (split; [first [apply keeps_chan_reg | apply keeps_chan_drop_rx] | intros; first [apply registered_chan_reg | discriminate]]).
Qed.
Lemma sub_poll_spec c w q H q' H' : sub_poll c w q H = (q', H') -> keeps w H H' /\ sub_ok w q' H'.
Proof.
  unfold sub_poll. destruct q as [sent dead tg v ch|m|sent tg v ch|u].
  - destruct (req_poll c w sent dead tg v ch H) as [[[o s'] d'] H1] eqn:E1. apply req_poll_spec in E1 as (K & Rg).
    destruct o; intros [= <- <-]; (split; [exact K|]); [exact I|]. destruct d'; [exact I | exact (Rg eq_refl eq_refl)].
  - intros [= <- <-]. split; [apply keeps_refl | exact I].
  - set (H1 := if sent then H else push_hout (mkEff tg v [] (RLegacy ch)) H).
    assert (K1 : keeps w H H1) by (subst H1; destruct sent; [apply keeps_refl | apply keeps_same; reflexivity]).
    destruct (ch_buf (gch ch H1)); intros [= <- <-];
      (split; [eapply keeps_trans; [exact K1|] |]); [apply keeps_chan_reg | apply registered_chan_reg | apply keeps_chan_drop_rx | exact I].
  - destruct (tf_fin (gtf u H)); [intros [= <- <-]; split; [apply keeps_refl | exact I]|].
    destruct (tf_alive (gtf u H)); intros [= <- <-]; (split; [first [apply keeps_join | apply keeps_same; reflexivity]|]); [apply joined_utf_new | exact I].
Qed.
(* join! and select! poll both sub-futures with the same waker: the second poll keeps what the first registered *)
Lemma sub_poll_both c w qa qb H a' H1 b' H2 :
  sub_poll c w qa H = (a', H1) -> sub_poll c w qb H1 = (b', H2) -> sub_ok w a' H2 /\ sub_ok w b' H2.
Proof.
  intros E1 E2. apply sub_poll_spec in E1 as (_ & Oa). apply sub_poll_spec in E2 as (K & Ob).
  split; [exact (sub_ok_keep _ _ _ _ K Oa) | exact Ob].
Qed.

Definition Rwoken (H H' : heap) : Prop := forall g, getd false g (woken H) = true -> getd false g (woken H') = true.
Lemma Rwoken_refl H : Rwoken H H. Proof. intros g E; exact E. Qed.
Lemma Rwoken_trans a b c : Rwoken a b -> Rwoken b c -> Rwoken a c.
Proof. intros A B g E. apply B, A, E. Qed.
Lemma Rwoken_same H H' : woken H' = woken H -> Rwoken H H'.
Proof. intros E g. rewrite E. auto. Qed.
Lemma Rwoken_set g H : Rwoken H (set_woken g H).
Proof.
  intros g' E. unfold set_woken; simpl. destruct (Nat.eq_dec g g') as [->|Hne].
  - apply getd_updd_same.
  - rewrite getd_updd_other by exact Hne. exact E.
Qed.
Lemma Rwoken_add_gen H : Rwoken H (mkH (chans H) (tfl H) (cmds H) (woken H ++ [false]) (xready H) (aborted H) (log H) (hout H)).
Proof.
  intros g E. simpl. unfold getd in *. destruct (Nat.lt_ge_cases g (length (woken H))) as [L|L].
  - rewrite app_nth1 by exact L. exact E.
  - rewrite nth_overflow in E by exact L. discriminate.
Qed.
Lemma Rwoken_closed : frame_closed (fun _ => True) (fun _ => True) Rwoken.
Proof.
  apply good_frame_closed;
    first [ exact Rwoken_refl | exact Rwoken_trans | exact Rwoken_set | exact Rwoken_add_gen | intros; apply Rwoken_same; reflexivity ].
Qed.
Definition frame_woken := frame_all Rwoken Rwoken_refl Rwoken_trans
  (fun c f H _ => Rwoken_same H (ucmd c f H) eq_refl)
  (fun c f H _ => Rwoken_same H (uch c f H) eq_refl)
  (fun u f H _ => Rwoken_same H (utf u f H) eq_refl)
  (fun n H => Rwoken_same H (note n H) eq_refl)
  Rwoken_set
  (fun q H => Rwoken_same H (push_xready q H) eq_refl)
  (fun c H => Rwoken_same H _ eq_refl)
  (fun t H => Rwoken_same H _ eq_refl)
  Rwoken_add_gen
  (fun n H => Rwoken_same H (add_aborted n H) eq_refl)
  (fun e H => Rwoken_same H (push_hout e H) eq_refl)
  (fun c H => Rwoken_same H _ eq_refl).
Lemma Rwoken_wake f w H : Rwoken H (wake f w H).
Proof. apply (dc_wake (fc_drop Rwoken_closed)). Qed.
Lemma wake_sets_woken f c s g H : getd false g (woken (wake f (WCmd c s g) H)) = true.
Proof.
  assert (E : getd false g (woken (wake_own c s g H)) = true) by apply getd_updd_same.
  rewrite wake_cmd. destruct (c_atomic (gcmd c (wake_own c s g H))); [destruct f|]; try exact E.
  apply (Rwoken_wake f w (ucmd c (set_atomic None) (wake_own c s g H))), E.
Qed.

Definition spec_post (F : rtfuns) : Prop :=
  forall c w fs H fs' H', rpoll F c w fs H = Some (Pend fs', H') -> post w fs' H'.

(* the leaves in the order of Rt.leaf: LRun, LReq, LStr, LJoin, LHost, LYield, LLeg, LBoth, LRace *)
Lemma post_step : forall F, spec_post F -> spec_post (step_funs F).
Proof.
  intros F IH c w fs H fs' H' E. cbn [step_funs rpoll] in E. unfold poll_body in E.
  destruct (f_leaf fs) as [t|sent dead tg v ch x k| |u k|cid meff mev k|n k|lsent ltg lv lch lx k|qa qb x1 x2 k|qa qb x k] eqn:EL.
  - (* a running task never answers Pending itself: every statement polls on *)
    destruct t; unfold new_chan, new_tflag in E; cbv beta iota in E;
      [destruct (f_stack fs); [discriminate|] | .. | destruct (new_cmd _ _ _ _ _ _) as [cid H1]]; apply IH in E; exact E.
  - destruct (req_poll c w sent dead tg v ch H) as [[[o s'] d'] H1] eqn:E1.
    destruct o; [apply IH in E; exact E|].
    injection E as <- <-. exact (proj2 (req_poll_spec _ _ _ _ _ _ _ _ _ _ _ _ E1) eq_refl).
  - destruct (f_stack fs) as [|fr rest] eqn:ES; [discriminate|].
    destruct (negb (fr_sent fr)).
    + injection E as <- <-. exact (registered_chan_reg _ w _).
    + destruct (ch_buf (gch (fr_ch fr) H)).
      * destruct (ch_tx (gch (fr_ch fr) H)); [|apply IH in E; exact E].
        injection E as <- <-. unfold post. rewrite EL, ES. apply registered_chan_reg.
      * apply IH in E; exact E.
  - destruct (tf_fin (gtf u H)); [apply IH in E; exact E|].
    destruct (tf_alive (gtf u H)); [|apply IH in E; exact E].
    injection E as <- <-. unfold post. rewrite EL. apply joined_utf_new.
  - destruct (rpoll_next F cid w H) as [[rr H1]|]; [|discriminate].
    destruct rr; try (apply IH in E; exact E).
    injection E as <- <-. unfold post. rewrite EL. exact I.
  - destruct n; [apply IH in E; exact E|].
    injection E as <- <-. destruct w as [c0 s0 g0|q]; [exact (wake_sets_woken _ _ _ _ _) | exact I].
  - match type of E with context[ch_buf (gch lch ?Hx)] => destruct (ch_buf (gch lch Hx)) end; [|apply IH in E; exact E].
    injection E as <- <-. exact (registered_chan_reg _ w _).
  - destruct (sub_poll c w qa H) as [a' H1] eqn:E1. destruct (sub_poll c w qb H1) as [b' H2] eqn:E2.
    pose proof (sub_poll_both _ _ _ _ _ _ _ _ _ E1 E2) as Ok.
    destruct a'; try (injection E as <- <-; exact Ok).
    destruct b'; try (injection E as <- <-; exact Ok).
    apply IH in E; exact E.
  - destruct (sub_poll c w qa H) as [a' H1] eqn:E1. destruct (sub_poll c w qb H1) as [b' H2] eqn:E2.
    pose proof (sub_poll_both _ _ _ _ _ _ _ _ _ E1 E2) as Ok.
    destruct a'; [|apply IH in E; exact E| |]; (destruct b'; [|apply IH in E; exact E| |]); injection E as <- <-; exact Ok.
Qed.

Theorem poll_registers : forall fuel, spec_post (funs fuel).
Proof.
  induction fuel as [|f IH]; [intros c w fs H fs' H' E; discriminate|].
  apply post_step; exact IH.
Qed.

(* some cell holds a clone: the strong count run_task looks at is above one *)
Lemma held_registered ch w g H : registered ch w H -> wk_gen w g = true -> holds g H = true.
Proof.
  intros (E & L) G. unfold holds. apply orb_true_iff; left. apply orb_true_iff; left.
  apply existsb_exists. exists (gch ch H). split; [apply nth_In; exact L | rewrite E; exact G].
Qed.
Lemma held_joined u w g H : joined u w H -> wk_gen w g = true -> holds g H = true.
Proof.
  intros (I & L) G. unfold holds. apply orb_true_iff; left. apply orb_true_iff; right.
  apply existsb_exists. exists (gtf u H). split; [apply nth_In; exact L|].
  apply existsb_exists. exists w. split; assumption.
Qed.
Lemma held_cell x w g H : c_atomic (gcmd x H) = Some w -> wk_gen w g = true -> holds g H = true.
Proof.
  intros E G. unfold holds. apply orb_true_iff; right. apply existsb_exists. exists (gcmd x H). split; [|rewrite E; exact G].
  apply nth_In. destruct (Nat.lt_ge_cases x (length (cmds H))) as [L|L]; [exact L|]. rewrite (gcmd_beyond x H L) in E. discriminate.
Qed.
Lemma holds_of_registered ch c s g H : registered ch (WCmd c s g) H -> holds g H = true.
Proof. intros R. apply (held_registered ch _ g H R), Nat.eqb_refl. Qed.
Lemma holds_of_joinw u c s g H : In (WCmd c s g) (tf_joinw (gtf u H)) -> u < length (tfl H) -> holds g H = true.
Proof. intros I L. apply (held_joined u _ g H (conj I L)), Nat.eqb_refl. Qed.

(* what the task may be blocked on when it is evicted; of a hosting task this says nothing (that leaf is
   EvictHost.evictable_strict's) *)
Definition closed_sub (q : subreq) : Prop := match q with SQ _ dead _ _ _ => dead = true | SDone _ => True | SL sent _ _ _ => False | SJ _ => False end.
Definition evictable (fs' : fstate) : Prop :=
  match f_leaf fs' with
  | LReq _ dead _ _ _ _ _ => dead = true
  | LBoth a b _ _ _ | LRace a b _ _ => closed_sub a /\ closed_sub b
  | LHost _ _ _ _ => True
  | LRun _ | LStr | LJoin _ _ | LYield _ _ | LLeg _ _ _ _ _ _ => False
  end.

Section Unheld.
  Variables (w : waker) (g : nat) (H : heap).
  Hypotheses (G : wk_gen w g = true) (Ho : holds g H = false).
  Lemma unheld_registered ch : ~ registered ch w H.
  Proof. intros R. rewrite (held_registered ch w g H R G) in Ho. discriminate. Qed.
  Lemma sub_ok_closed q : sub_ok w q H -> closed_sub q.
  Proof.
    destruct q as [s [|] tg v ch|m|s tg v ch|u]; cbn; intros S; try reflexivity; try exact I; exfalso.
    - exact (unheld_registered ch S).
    - exact (unheld_registered ch S).
    - rewrite (held_joined u w g H S G) in Ho. discriminate.
  Qed.
  Lemma post_unheld_evictable fs : ~ woken_of w H -> post w fs H -> evictable fs.
  Proof.
    intros NW. unfold post, evictable.
    destruct (f_leaf fs) as [t|sent [|] tg v ch x k| |u k|cid meff mev k|n k|lsent ltg lv lch lx k|qa qb x1 x2 k|qa qb x k];
      intros P; try reflexivity; try exact P; try exact (NW P); try (split; apply sub_ok_closed, P); exfalso.
    - exact (unheld_registered ch (P eq_refl)).
    - destruct (f_stack fs) as [|fr rest]; [exact P | exact (unheld_registered _ P)].
    - rewrite (held_joined u w g H P G) in Ho. discriminate.
    - exact (unheld_registered lch P).
  Qed.
End Unheld.
Lemma post_same w fs H H' : chans H' = chans H -> tfl H' = tfl H -> woken H' = woken H -> post w fs H -> post w fs H'.
Proof. unfold post, sub_ok, registered, woken_of, gch, gtf. intros -> -> ->. exact (fun P => P). Qed.

Lemma slab_get_written n cid slot t H : slab_get slot (gcmd cid (note n (ucmd cid (slab_set slot t) H))) = Some t.
Proof. change (gcmd cid (note n ?X)) with (gcmd cid X). rewrite gcmd_ucmd_same. apply slab_get_set. Qed.
Lemma evicted_evictable fuel cid slot g fs H1 fs' H2 f :
  poll fuel cid (WCmd cid slot g) fs H1 = Some (Pend fs', H2) ->
  getd false g (woken (ucmd cid f H2)) = false -> holds g (ucmd cid f H2) = false -> evictable fs'.
Proof.
  intros E EW EHo. apply (post_unheld_evictable (WCmd cid slot g) g (ucmd cid f H2) (Nat.eqb_refl g) EHo).
  - cbn [woken_of]. rewrite EW. discriminate.
  - apply (post_same _ _ H2); try reflexivity. exact (poll_registers fuel _ _ _ _ _ _ E).
Qed.

Theorem evict_sound : forall fuel cid slot H H',
  run_task (S fuel) cid slot H = Some (Cancelled, H') ->
  exists t, slab_get slot (gcmd cid H') = Some t /\ evictable (t_fs t).
Proof.
  intros fuel cid slot H H' E.
  destruct (run_task_cancelled_inv (funs fuel) _ _ _ _ E) as (t & fs' & H2 & _ & E2 & EW & EHo & ->).
  exists (mkT (t_uid t) fs'). split; [apply slab_get_written | exact (evicted_evictable _ _ _ _ _ _ _ _ _ E2 EW EHo)].
Qed.
