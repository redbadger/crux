(* The two hosts of Host.v.  The executor and the event loop of the Core host are followed once, along any relation R
   on heaps that their steps respect ([pass]), and instantiated with Rhout (process_spec); dstep_R does the same for a
   shell action of the direct host. *)
From Coq Require Import List Arith Bool Lia.
From Crux Require Import Rt.Lang Rt.Rt Rt.Host Rt.Check Rt.CheckFacts Rt.Frame Rt.Perm.
Import ListNotations.

(* [inversion]/[injection] normalise fuelled subterms; peel [Some] with congruence instead *)
Ltac some_eq E := match type of E with Some ?a = Some ?b => let X := fresh "X" in assert (X : a = b) by congruence; rewrite <- X end.

Definition extends (a b : list event) : Prop := exists l, b = a ++ l.
Lemma extends_refl a : extends a a. Proof. apply grows_refl. Qed.
Lemma extends_trans a b c : extends a b -> extends b c -> extends a c. Proof. apply grows_trans. Qed.

(* C03, first in, first out between the event channel and update.  Every step of the model only ever APPENDS to
   the pipeline - the executor puts emitted events at the end of the channel, the event loop moves the head of the
   channel to the end of the log - so no event overtakes another, none is lost and none is applied twice. *)
Definition pipeline (k : core) : list event := k_log k ++ k_events k.

Section Executor.
Variables (FUEL : nat) (R : heap -> heap -> Prop).
Hypothesis R_refl : forall H, R H H.
Hypothesis R_trans : forall a b c, R a b -> R b c -> R a c.
Hypothesis R_poll_next : forall cid q H r H', poll_next FUEL cid (WExec q) H = Some (r, H') -> R H H'.
Hypothesis R_push_hout : forall e H, R H (push_hout e H).
Hypothesis R_drop_cmd : forall f cid H, R H (drop_cmd f cid H).
Hypothesis R_set_xready : forall l H, R H (set_xready l H).
Hypothesis R_new_cmd : forall names ep en m ex H cid H1, new_cmd names ep en m ex H = (cid, H1) -> R H H1.

(* the log stands still: the executor does not call update *)
Definition pass (k k' : core) : Prop := R (k_H k) (k_H k') /\ k_log k' = k_log k /\ extends (k_events k) (k_events k').
Lemma pass_refl k : pass k k.
Proof. split; [apply R_refl | split; [reflexivity | apply extends_refl]]. Qed.
Lemma pass_trans a b c : pass a b -> pass b c -> pass a c.
Proof.
  intros (R1 & L1 & E1) (R2 & L2 & E2).
  split; [eapply R_trans; eassumption | split; [congruence | eapply extends_trans; eassumption]].
Qed.
Lemma pass_pipeline k k' : pass k k' -> extends (pipeline k) (pipeline k').
Proof. intros (_ & L & [l E]). exists l. unfold pipeline. rewrite L, E, app_assoc. reflexivity. Qed.

Lemma pass_mk k H' sp sl ev out rq : R (k_H k) H' -> extends (k_events k) ev -> pass k (mkC H' sp sl ev out (k_log k) rq).
Proof. intros RH EE. split; [exact RH | split; [reflexivity | exact EE]]. Qed.

Lemma xrun_task_pass : forall fuel q k k', xrun_task FUEL fuel q k = Some k' -> pass k k'.
Proof.
  induction fuel as [|f IH]; intros q k k' E; [discriminate|]. cbn [xrun_task] in E.
  destruct (xget q (k_slab k)); [|some_eq E; apply pass_refl].
  destruct (poll_next FUEL n (WExec q) (k_H k)) as [[r H1]|] eqn:EP; [|discriminate].
  apply R_poll_next in EP. destruct r as [| |eff|ev].
  - some_eq E. apply pass_mk; [exact EP | apply extends_refl].
  - some_eq E. apply pass_mk; [eapply R_trans; [exact EP | apply R_drop_cmd] | apply extends_refl].
  - apply IH in E. eapply pass_trans; [|exact E]. apply pass_mk; [eapply R_trans; [exact EP | apply R_push_hout] | apply extends_refl].
  - apply IH in E. eapply pass_trans; [|exact E]. apply pass_mk; [exact EP | exists [ev]; reflexivity].
Qed.
Lemma xspawn_all_pass : forall fuel k k', xspawn_all FUEL fuel k = Some k' -> pass k k'.
Proof.
  induction fuel as [|f IH]; intros k k' E; [discriminate|]. cbn [xspawn_all] in E.
  destruct (k_spawn k); [some_eq E; apply pass_refl|].
  destruct (xinsert n (k_slab k)) as [q sl].
  match type of E with match ?x with _ => _ end = _ => destruct x as [k1|] eqn:E1; [|discriminate] end.
  apply xrun_task_pass in E1. apply IH in E. exact (pass_trans k _ _ E1 E).
Qed.
Lemma xready_all_pass : forall fuel k k', xready_all FUEL fuel k = Some k' -> pass k k'.
Proof.
  induction fuel as [|f IH]; intros k k' E; [discriminate|]. cbn [xready_all] in E.
  destruct (xready (k_H k)); [some_eq E; apply pass_refl|].
  match type of E with match ?x with _ => _ end = _ => destruct x as [k1|] eqn:E1; [|discriminate] end.
  apply xrun_task_pass in E1. apply IH in E. eapply pass_trans; [|exact E]. eapply pass_trans; [|exact E1].
  apply pass_mk; [apply R_set_xready | apply extends_refl].
Qed.

Lemma run_all_inv f k k' : run_all FUEL (S f) k = Some k' ->
  (k_spawn k = [] /\ xready (k_H k) = [] /\ k' = k) \/
  exists k1 k2, xspawn_all FUEL FUEL k = Some k1 /\ xready_all FUEL FUEL k1 = Some k2 /\ run_all FUEL f k2 = Some k'.
Proof.
  cbn [run_all]. intros E.
  assert (X : (k_spawn k = [] /\ xready (k_H k) = [] /\ k' = k) \/
              match xspawn_all FUEL FUEL k with None => None | Some k1 =>
              match xready_all FUEL FUEL k1 with None => None | Some k2 => run_all FUEL f k2 end end = Some k').
  { destruct (k_spawn k); destruct (xready (k_H k)); try (right; exact E). left. some_eq E. auto. }
  destruct X as [X|X]; [left; exact X | right].
  destruct (xspawn_all FUEL FUEL k) as [k1|]; [|discriminate].
  destruct (xready_all FUEL FUEL k1) as [k2|] eqn:E2; [|discriminate]. exists k1, k2. auto.
Qed.
Lemma run_all_pass : forall fuel k k', run_all FUEL fuel k = Some k' -> pass k k' /\ k_spawn k' = [] /\ xready (k_H k') = [].
Proof.
  induction fuel as [|f IH]; intros k k' E; [discriminate|].
  apply run_all_inv in E. destruct E as [(S0 & X0 & ->) | (k1 & k2 & E1 & E2 & E3)].
  - split; [apply pass_refl | split; assumption].
  - apply xspawn_all_pass in E1. apply xready_all_pass in E2. apply IH in E3. destruct E3 as [E3 I].
    split; [|exact I]. eapply pass_trans; [exact E1 | eapply pass_trans; [exact E2 | exact E3]].
Qed.

Theorem process_pass : forall fuel hs k k', process FUEL fuel hs k = Some k' ->
  R (k_H k) (k_H k') /\ extends (k_log k) (k_log k') /\ extends (pipeline k) (pipeline k') /\
  k_spawn k' = [] /\ xready (k_H k') = [] /\ k_events k' = [].
Proof.
  induction fuel as [|f IH]; intros hs k k' E; [discriminate|]. cbn [process] in E.
  destruct (run_all FUEL FUEL k) as [k1|] eqn:E1; [|discriminate].
  apply run_all_pass in E1. destruct E1 as (P1 & S1 & X1).
  pose proof (pass_pipeline _ _ P1) as PP. destruct P1 as (R1 & L1 & _).
  destruct (k_events k1) as [|e rest] eqn:EV.
  - some_eq E. rewrite L1. repeat split; auto using extends_refl.
  - apply IH in E. destruct E as (R2 & L2 & P2 & I). unfold spawn_cmd in R2, L2, P2.
    destruct (new_cmd _ _ _ _ _ _) as [cid H1] eqn:EN. apply R_new_cmd in EN. unfold pipeline in P2. cbn [k_H k_log k_events] in *.
    split; [eapply R_trans; [exact R1 | eapply R_trans; [exact EN | exact R2]]|].
    split; [eapply extends_trans; [|exact L2]; exists [e]; rewrite L1; reflexivity|].
    split; [eapply extends_trans; [exact PP|]; unfold pipeline; rewrite EV; rewrite <- app_assoc in P2; exact P2 | exact I].
Qed.
End Executor.

Section DirectStep.
Variables (FUEL top : nat) (R : heap -> heap -> Prop).
Hypothesis R_refl : forall H, R H H.
Hypothesis R_trans : forall a b c, R a b -> R b c -> R a c.
Hypothesis R_settle : forall H H', settle FUEL top H = Some H' -> R H H'.
Hypothesis R_take_eff : forall H, R H (ucmd top (set_eff []) H).
Hypothesis R_take_evs : forall H, R H (ucmd top (set_evs []) H).
Hypothesis R_resolve : forall e v H, R H (snd (resolve_req e v H)).
Hypothesis R_drop_req : forall e H, R H (drop_req e H).
Hypothesis R_add_aborted : forall n H, R H (add_aborted n H).
Hypothesis R_spawn : forall t H, R H (ucmd top (fun cm => set_spawnq (c_spawnq cm ++ [mkT (length (tfl H)) (fs_of [] t)]) cm) (snd (new_tflag H))).

Lemma dstep_R a st o st' : dstep FUEL top a st = Some (o, st') -> R (d_H st) (d_H st').
Proof.
  destruct a; cbn [dstep]; intros E.
  1-3: destruct (settle FUEL top (d_H st)) as [H1|] eqn:ES; [apply R_settle in ES | discriminate]; inversion E; subst; cbn [d_H].
  - eapply R_trans; [exact ES | apply R_take_eff].
  - eapply R_trans; [exact ES | apply R_take_evs].
  - exact ES.
  - destruct (find_rq tg v occ 0 (d_reqs st)) as [i|]; [destruct (rq_dropped _)|]; try (inversion E; subst; apply R_refl).
    match type of E with context[resolve_req ?e ?x ?H] => pose proof (R_resolve e x H) as M; destruct (resolve_req e x H) as [[code e'] H1] end.
    inversion E; subst. exact M.
  - destruct (find_rq tg v occ 0 (d_reqs st)) as [i|]; [destruct (rq_dropped _)|]; inversion E; subst; first [apply R_refl | apply R_drop_req].
  - inversion E; subst. apply R_add_aborted.
  - inversion E; subst. apply R_refl.
  - inversion E; subst. apply R_refl.
  - unfold new_tflag in E. inversion E; subst. exact (R_spawn t (d_H st)).
Qed.
End DirectStep.

Section WithFuel.
Variable FUEL : nat.

Lemma dstep_obs top a st o st' : dstep FUEL top a st = Some (o, st') ->
  match o with
  | OEffects l => exists H1, settle FUEL top (d_H st) = Some H1 /\ l = map oeff_of (c_eff (gcmd top H1)) /\ d_H st' = ucmd top (set_eff []) H1
  | OEvents l => exists H1, settle FUEL top (d_H st) = Some H1 /\ l = c_evs (gcmd top H1) /\ d_H st' = ucmd top (set_evs []) H1
  | ODone d n => exists H1, settle FUEL top (d_H st) = Some H1 /\ d_H st' = H1 /\ n = c_len (gcmd top H1) /\
                            d = match c_eff (gcmd top H1), c_evs (gcmd top H1) with [], [] => Nat.eqb n 0 | _, _ => false end
  | OCall _ _ _ | OPanic => False
  | _ => True
  end.
Proof.
  destruct a; cbn [dstep]; intros E.
  1-3: destruct (settle FUEL top (d_H st)) as [H1|]; [|discriminate]; inversion E; subst; exists H1; repeat split; reflexivity.
  - destruct (find_rq tg v occ 0 (d_reqs st)) as [i|]; [destruct (rq_dropped _); [|destruct (resolve_req _ _ _) as [[code e'] H1]]|];
      inversion E; exact I.
  - destruct (find_rq tg v occ 0 (d_reqs st)) as [i|]; [destruct (rq_dropped _)|]; inversion E; exact I.
  - inversion E; exact I.
  - inversion E; exact I.
  - inversion E; exact I.
  - destruct (new_tflag (d_H st)). inversion E; exact I.
Qed.

(* C07: a command that reports done holds no task, on every trace of the direct host *)
Lemma dstep_done_sound top a st o st' :
  dstep FUEL top a st = Some (o, st') -> match o with ODone true (S _) => False | _ => True end.
Proof.
  intros E. apply dstep_obs in E. destruct o as [| |[|] [|n]| | | | |]; try exact I.
  destruct E as (H1 & _ & _ & _ & Ed). destruct (c_eff _); [destruct (c_evs _)|]; discriminate.
Qed.

Theorem drun_done_sound : forall acts top st os,
  drun FUEL top acts st = Some os -> C07_done_sound os = true.
Proof.
  induction acts as [|a acts IH]; intros top st os E; simpl in E.
  - inversion E; reflexivity.
  - destruct (dstep FUEL top a st) as [[o st']|] eqn:E1; [|discriminate].
    destruct (drun FUEL top acts st') as [os'|] eqn:E2; [|discriminate].
    inversion E; subst. unfold C07_done_sound. simpl. apply andb_true_iff. split.
    + apply dstep_done_sound in E1. destruct o; auto. destruct b; auto. destruct live; auto.
    + apply (IH top st'); exact E2.
Qed.

(* C01, every requested effect is handed over exactly once.  During a call the core's request channel only grows;
   the call then returns the WHOLE channel, leaves it empty and records each returned request once in the shell's
   table.  So an effect that reached the channel is in the return value of exactly that call. *)
Lemma run_all_spec : forall fuel k k', run_all FUEL fuel k = Some k' -> pass Rhout k k' /\ k_spawn k' = [] /\ xready (k_H k') = [].
Proof.
  apply (run_all_pass FUEL Rhout Rhout_refl Rhout_trans (fun cid q => hout_poll_next FUEL cid (WExec q)));
    [intros e H; exists [e]; reflexivity | apply hout_drop_cmd | intros; apply Rhout_same; reflexivity].
Qed.
Lemma process_spec : forall fuel hs k k', process FUEL fuel hs k = Some k' ->
  Rhout (k_H k) (k_H k') /\ extends (k_log k) (k_log k') /\ extends (pipeline k) (pipeline k') /\
  k_spawn k' = [] /\ xready (k_H k') = [] /\ k_events k' = [].
Proof.
  apply (process_pass FUEL Rhout Rhout_refl Rhout_trans (fun cid q => hout_poll_next FUEL cid (WExec q)));
    [intros e H; exists [e]; reflexivity | apply hout_drop_cmd | intros; apply Rhout_same; reflexivity | apply (R_new_cmd Rhout_closed)].
Qed.

Theorem process_hout : forall fuel hs k k', process FUEL fuel hs k = Some k' -> Rhout (k_H k) (k_H k').
Proof. intros fuel hs k k' E. apply (process_spec fuel hs k k' E). Qed.
Theorem take_out_hands_over_everything code k :
  fst (take_out code k) = OCall code (map oeff_of (hout (k_H k))) (k_log k) /\
  hout (k_H (snd (take_out code k))) = [] /\
  k_reqs (snd (take_out code k)) = k_reqs k ++ map (fun e => mkRq e false) (hout (k_H k)).
Proof. unfold take_out. cbn. auto. Qed.

Theorem process_idle : forall fuel hs k k', process FUEL fuel hs k = Some k' ->
  k_spawn k' = [] /\ xready (k_H k') = [] /\ k_events k' = [].
Proof. intros fuel hs k k' E. apply (process_spec fuel hs k k' E). Qed.

Lemma call_returns fuel hs k1 o k' :
  match process FUEL fuel hs k1 with None => None | Some k2 => Some (take_out 0 k2) end = Some (o, k') ->
  exists effs, o = OCall 0 effs (k_log k') /\ extends (k_log k1) (k_log k') /\
               k_spawn k' = [] /\ xready (k_H k') = [] /\ k_events k' = [] /\ hout (k_H k') = [].
Proof.
  destruct (process FUEL fuel hs k1) as [k2|] eqn:P; [|discriminate].
  apply process_spec in P. destruct P as (_ & L & _ & S1 & R1 & E1).
  unfold take_out. intros T. inversion T; subst. eexists. repeat split; assumption.
Qed.

(* Core::resolve returns before process() when the resolution is rejected: nothing was woken, nothing requested *)
Lemma resolve_reject_idle e v H code e' H' :
  resolve_req e v H = (code, e', H') -> code <> 0 -> xready H' = xready H /\ hout H' = hout H.
Proof.
  unfold resolve_req. destruct (e_res e) as [|ch|ch|ch].
  - intros E _; inversion E; subst. split; reflexivity.
  - destruct (chan_send ch v H) as [ok H1]. intros E C; inversion E; subst. congruence.
  - unfold chan_send. destruct (ch_rx (gch ch H)); intros E C; inversion E; subst; [congruence|]. split; reflexivity.
  - destruct (chan_send ch v H) as [ok H1]. intros E C; inversion E; subst. congruence.
Qed.

Definition submitted (a : action) : list event := match a with AEvent tg v => [mkEv tg v []] | _ => [] end.
Lemma cstep_obs hs a k o k' : cstep FUEL hs a k = Some (o, k') ->
  (exists k1, k_log k1 = k_log k ++ submitted a /\
              match process FUEL FUEL hs k1 with None => None | Some k2 => Some (take_out 0 k2) end = Some (o, k')) \/
  (submitted a = [] /\ k_log k' = k_log k /\
   match o with
   | OCall 0 _ _ | OPanic => False
   | OCall _ _ lg => lg = k_log k /\ k_spawn k' = k_spawn k /\ k_events k' = k_events k /\
                     xready (k_H k') = xready (k_H k) /\ hout (k_H k') = hout (k_H k)
   | OResolve _ | OLive _ => k' = k
   | _ => True
   end).
Proof.
  destruct a; cbn [cstep]; intros E; try (right; inversion E; subst; repeat split; reflexivity).
  - (* AResolve *)
    destruct (find_rq tg v occ 0 (k_reqs k)) as [i|]; [|right; inversion E; repeat split; reflexivity].
    destruct (rq_dropped _); [right; inversion E; repeat split; reflexivity|].
    destruct (resolve_req _ _ (k_H k)) as [[[|c] e'] H1] eqn:ER; cbn [Nat.eqb] in E.
    + left. eexists. split; [|exact E]. symmetry. apply app_nil_r.
    + right. inversion E; subst. destruct (resolve_reject_idle _ _ _ _ _ _ ER ltac:(discriminate)) as [RX HX].
      repeat split; assumption.
  - (* ADropReq *)
    destruct (find_rq tg v occ 0 (k_reqs k)) as [i|]; [destruct (rq_dropped _)|]; right; inversion E; repeat split; reflexivity.
  - (* AEvent *)
    left. eexists. split; [|exact E]. unfold spawn_cmd. destruct (new_cmd _ _ _ _ _ _). reflexivity.
Qed.

(* C03: the app's log only grows, and a submitted event is applied first *)
Lemma process_log : forall fuel hs k k', process FUEL fuel hs k = Some k' -> extends (k_log k) (k_log k').
Proof. intros fuel hs k k' E. apply (process_spec fuel hs k k' E). Qed.
Theorem process_pipeline : forall fuel hs k k', process FUEL fuel hs k = Some k' -> extends (pipeline k) (pipeline k').
Proof. intros fuel hs k k' E. apply (process_spec fuel hs k k' E). Qed.
Theorem crun_log_ok : forall acts hs k os,
  crun FUEL hs acts k = Some os -> C03_log acts os (k_log k) = true.
Proof.
  induction acts as [|a acts IH]; intros hs k os E; simpl in E.
  - inversion E; reflexivity.
  - destruct (cstep FUEL hs a k) as [[o k']|] eqn:E1; [|discriminate].
    destruct (crun FUEL hs acts k') as [os'|] eqn:E2; [|discriminate].
    inversion E; subst; clear E. apply IH in E2.
    destruct (cstep_obs _ _ _ _ _ E1) as [(k1 & L1 & EC) | (Sa & L & O)].
    + (* a call *)
      apply call_returns in EC as (effs & -> & [l El] & _). rewrite L1, <- app_assoc in El. rewrite El in *.
      rewrite C03_log_call; [exact E2|]. destruct a; try exact I. exists l. reflexivity.
    + rewrite L in E2. destruct o as [| | | |[|c] effs lg| | |]; try exact E2; try contradiction.
      destruct O as [-> _]. cbn [C03_log]. rewrite is_prefix_refl. destruct a; try discriminate Sa; exact E2.
Qed.
End WithFuel.
