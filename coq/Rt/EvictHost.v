(* Eviction soundness, the hosting leaf (C07; C05 "no live subscription is torn down between layers"):
   a task that hosts a command is never discarded as unwakeable.

   Stream::poll_next registers the host's waker in the hosted command's AtomicWaker before anything runs;
   the only thing that ever empties that cell is a wake of one of the hosted command's tasks, which then
   wakes the registered waker - and a CommandWaker marks itself woken before it does anything else.  So when
   the hosting task's poll returns Pending, either the cell still holds this poll's waker (a clone survives:
   strong count >= 2) or the waker was woken during the poll; in both cases run_task answers Suspended.

   The argument needs one structural fact about heaps, the ORDER invariant OrdH: a task of command c only ever
   hosts commands with a larger id (a hosted command is created after its host's command), and the cell of a
   command only holds a waker of a command with a smaller id.  Every runtime step preserves it, and it implies
   that settling command x only ever polls commands above x, hence never re-registers x's cell. *)
From Coq Require Import List Arith Bool Lia.
From Crux Require Import Rt.Lang Rt.Rt Rt.Tables Rt.Frame Rt.Evict Rt.Host Rt.HostProps Rt.Props Rt.Silent Rt.DoneStable.
Import ListNotations.

Definition host_gt (c : nat) (fs : fstate) : Prop :=
  match f_leaf fs with LHost x _ _ _ => c < x | _ => True end.
Definition tasks_of (cm : cmdst) (t : trec) : Prop := In (Occ t) (c_ent cm) \/ In t (c_spawnq cm).
Definition waker_lt (w : waker) (x : nat) : Prop := match w with WCmd c _ _ => c < x | WExec _ => True end.
Definition OrdH (H : heap) : Prop :=
  (forall c t, tasks_of (gcmd c H) t -> host_gt c (t_fs t)) /\
  (forall z w, c_atomic (gcmd z H) = Some w -> waker_lt w z).
(* its second clause, which is all the fuel of a wake depends on *)
Definition AOrd (H : heap) : Prop := forall z w, c_atomic (gcmd z H) = Some w -> waker_lt w z.
Lemma OrdH_AOrd H : OrdH H -> AOrd H. Proof. intros (_ & A). exact A. Qed.
(* a task of c is polled with a waker of c (run_task makes it) or of the executor: either is waker_lt any x above c *)
Definition waker_in (c : nat) (w : waker) : Prop := match w with WCmd c' _ _ => c' = c | WExec _ => True end.

(* Runtime steps keep wokenx (Rwx); the host's executor does not: it pops xready (Host.xready_all), so
   wokenx (WExec q), and Q with it, speaks of the heap between two steps of the host only. *)
Definition wokenx (w : waker) (H : heap) : Prop :=
  match w with WCmd _ _ g => getd false g (woken H) = true | WExec q => In q (xready H) end.
Definition Rwx (H H' : heap) : Prop := Rwoken H H' /\ incl (xready H) (xready H').
Lemma Rwx_refl H : Rwx H H. Proof. split; [apply Rwoken_refl | apply incl_refl]. Qed.
Lemma Rwx_same H H' : woken H' = woken H -> xready H' = xready H -> Rwx H H'.
Proof. intros E1 E2. split; [apply Rwoken_same; exact E1 | rewrite E2; apply incl_refl]. Qed.
Lemma wokenx_woken_of w H : wokenx w H -> woken_of w H.
Proof. destruct w; [intros X; exact X | intros _; exact I]. Qed.
(* used twice: inside StB, for what a step keeps (a registration made earlier survives it), and as what a Pending
   poll_next x with waker w has achieved (Q x w) *)
Definition Q (P : nat) (w0 : waker) (H : heap) : Prop := c_atomic (gcmd P H) = Some w0 \/ wokenx w0 H.

(* What a step H -> H' may do.  The bound b is there for one step, registering a waker in the cell of command c, which
   overwrites what Q c speaks of: it is StB b for b <= c only; every other single step is StB b for every b.  So
   Stream::poll_next of command x is StB x, and polling a task of command c (settling c, running its tasks) is
   StB (S c): under the order invariant it calls poll_next only on commands above c.
   StB 0 says nothing about any cell: it is the part of a step that concerns the order invariant alone. *)
Definition StB (b : nat) (H H' : heap) : Prop :=
  (OrdH H -> OrdH H') /\ length (cmds H) <= length (cmds H') /\ forall z w0, z < b -> Q z w0 H -> Q z w0 H'.
Lemma StB_le b b' H H' : b' <= b -> StB b H H' -> StB b' H H'.
Proof. intros L (A & B & C). split; [exact A | split; [exact B | intros z w0 Lz; apply C; lia]]. Qed.
Lemma StB_ord b H H' : StB b H H' -> OrdH H -> OrdH H'. Proof. intros (A & _). exact A. Qed.
Lemma StB_len b H H' c : StB b H H' -> c < length (cmds H) -> c < length (cmds H'). Proof. intros (_ & A & _) L. lia. Qed.

Lemma wokenx_mono w0 H H' : Rwx H H' -> wokenx w0 H -> wokenx w0 H'.
Proof. intros (R & I). unfold wokenx. destruct w0; [apply R | apply I]. Qed.
Lemma wake_wokenx f w0 H : wokenx w0 (wake f w0 H).
Proof.
  unfold wokenx. destruct w0 as [c s g|q]; [apply wake_sets_woken|].
  rewrite wake_exec. unfold push_xready; cbn [xready]. apply in_or_app. right. left. reflexivity.
Qed.

Lemma AOrd_ucmd c f H :
  (forall w, c_atomic (f (gcmd c H)) = Some w -> c_atomic (gcmd c H) = Some w \/ waker_lt w c) -> AOrd H -> AOrd (ucmd c f H).
Proof.
  intros Fa A x w E. destruct (Nat.eq_dec c x) as [<-|Hn]; [rewrite gcmd_ucmd_same in E | rewrite gcmd_ucmd_other in E by exact Hn; auto].
  destruct (Fa w E); auto.
Qed.
Lemma OrdH_ucmd c f H :
  (forall t, tasks_of (f (gcmd c H)) t -> tasks_of (gcmd c H) t \/ host_gt c (t_fs t)) ->
  (forall w, c_atomic (f (gcmd c H)) = Some w -> c_atomic (gcmd c H) = Some w \/ waker_lt w c) ->
  OrdH H -> OrdH (ucmd c f H).
Proof.
  intros Ft Fa (O & Oa). split; [|exact (AOrd_ucmd c f H Fa Oa)].
  intros x t T. destruct (Nat.eq_dec c x) as [<-|Hn]; [rewrite gcmd_ucmd_same in T | rewrite gcmd_ucmd_other in T by exact Hn; auto].
  destruct (Ft t T); auto.
Qed.
Lemma OrdH_set_atomic c a H : match a with Some w => waker_lt w c | None => True end -> OrdH H -> OrdH (ucmd c (set_atomic a) H).
Proof.
  intros Ha. apply OrdH_ucmd; [intros t T; left; exact T | intros w A; right].
  destruct a; [injection A as <-; exact Ha | discriminate].
Qed.

Lemma tasks_slab_set s t cm t' : tasks_of (slab_set s t cm) t' -> t' = t \/ tasks_of cm t'.
Proof.
  unfold tasks_of, slab_set, set_slab; simpl. intros [I|I]; [|right; right; exact I].
  apply In_updd in I. destruct I as [E|[I|E]]; [left; inversion E; reflexivity | right; left; exact I | discriminate].
Qed.
Lemma tasks_slab_remove s cm t' : tasks_of (slab_remove s cm) t' -> tasks_of cm t'.
Proof.
  unfold tasks_of, slab_remove, set_slab; simpl. intros [I|I]; [|right; exact I].
  apply In_updd in I. destruct I as [E|[I|E]]; [discriminate | left; exact I | discriminate].
Qed.
Lemma tasks_spawn_one t cm t' : tasks_of (spawn_one t cm) t' -> t' = t \/ tasks_of cm t'.
Proof.
  unfold tasks_of, spawn_one, slab_insert. destruct cm; simpl.
  match goal with |- context[if ?b then _ else _] => destruct b end; simpl; unfold set_ready, set_slab; simpl.
  - intros [I|I]; [|right; right; exact I]. apply in_app_or in I. destruct I as [I|[E|[]]]; [right; left; exact I | left; inversion E; reflexivity].
  - intros [I|I]; [|right; right; exact I]. apply In_updd in I. destruct I as [E|[I|E]]; [left; inversion E; reflexivity | right; left; exact I | discriminate].
Qed.
Lemma slab_get_tasks s cm t : slab_get s cm = Some t -> tasks_of cm t.
Proof.
  unfold slab_get, tasks_of. destruct (nth_error (c_ent cm) s) as [[t'|n]|] eqn:E; try discriminate.
  intros X; inversion X; subst. left. eapply nth_error_In; exact E.
Qed.
Lemma slab_get_lt s c H t : slab_get s (gcmd c H) = Some t -> c < length (cmds H).
Proof.
  intros E. destruct (Nat.lt_ge_cases c (length (cmds H))) as [L|L]; [exact L|].
  rewrite (gcmd_beyond c H L) in E. destruct s; discriminate.
Qed.

Lemma new_cmd_cid names ep en m ex H cid H1 : new_cmd names ep en m ex H = (cid, H1) -> cid = length (cmds H).
Proof. unfold new_cmd, new_tflag. intros [= <- _]. reflexivity. Qed.

Section Base.
  Variable b : nat.
  Notation StB := (StB b).

  Lemma StB_refl H : StB H H. Proof. split; [auto | split; [apply le_n | auto]]. Qed.
  Lemma StB_trans x y z : StB x y -> StB y z -> StB x z.
  Proof. intros (A1 & A2 & A3) (B1 & B2 & B3). split; [auto | split; [lia | auto]]. Qed.

  Lemma StB_cmds_same H H' : cmds H' = cmds H -> Rwx H H' -> StB H H'.
  Proof.
    intros E R. split; [|split].
    - unfold OrdH, gcmd. rewrite E. auto.
    - rewrite E. apply le_n.
    - intros z w0 _ [A|W]; [left; unfold gcmd in *; rewrite E; exact A | right; eapply wokenx_mono; eauto].
  Qed.
  Lemma StB_same H H' : cmds H' = cmds H -> woken H' = woken H -> xready H' = xready H -> StB H H'.
  Proof. intros E1 E2 E3. apply StB_cmds_same; [exact E1 | apply Rwx_same; assumption]. Qed.

  Lemma StB_ucmd c f H :
    (forall cm, c_atomic (f cm) = c_atomic cm) ->
    (forall cm t, tasks_of (f cm) t -> tasks_of cm t \/ host_gt c (t_fs t)) -> StB H (ucmd c f H).
  Proof.
    intros Fa Ft. split; [|split].
    - apply OrdH_ucmd; [intros t T; apply Ft, T | intros w A; left; rewrite Fa in A; exact A].
    - apply length_ucmd.
    - intros z w0 _ [A|W]; [left | right; exact W].
      destruct (Nat.eq_dec c z) as [->|Hne]; [rewrite gcmd_ucmd_same, Fa; exact A | rewrite gcmd_ucmd_other by exact Hne; exact A].
  Qed.
  Lemma StB_ucmd_plain c f H :
    (forall cm, c_atomic (f cm) = c_atomic cm) -> (forall cm, c_ent (f cm) = c_ent cm) -> (forall cm, c_spawnq (f cm) = c_spawnq cm) ->
    StB H (ucmd c f H).
  Proof. intros Fa Fe Fs. apply StB_ucmd; [exact Fa|]. intros cm t T. left. unfold tasks_of in *. rewrite Fe, Fs in T. exact T. Qed.

  Lemma StB_set_atomic c a H : b <= c -> match a with Some w => waker_lt w c | None => True end -> StB H (ucmd c (set_atomic a) H).
  Proof.
    intros Lb Ha. split; [apply OrdH_set_atomic, Ha | split; [apply length_ucmd|]].
    intros z w0 Lz [A|W]; [left; rewrite gcmd_ucmd_other by lia; exact A | right; exact W].
  Qed.
End Base.
Ltac plain := apply StB_ucmd_plain; reflexivity.

Section Steps.
  Variable b : nat.
  Notation StB := (StB b).

  Lemma StB_set_woken g H : StB H (set_woken g H).
  Proof. apply StB_cmds_same; [reflexivity | split; [apply Rwoken_set | apply incl_refl]]. Qed.
  Lemma StB_wake : forall fuel w H, StB H (wake fuel w H).
  Proof.
    assert (own : forall c s g H, StB H (wake_own c s g H)).
    { intros. unfold wake_own. eapply StB_trans; [|apply StB_set_woken].
      destruct (c_alive (gcmd c H)); [plain | apply StB_refl]. }
    assert (exec : forall fuel q H, StB H (wake fuel (WExec q) H)).
    { intros. rewrite wake_exec. apply StB_cmds_same; [reflexivity | split; [apply Rwoken_same; reflexivity | apply incl_appl, incl_refl]]. }
    induction fuel as [|f IH]; intros [c s g|q] H; [|apply exec| |apply exec]; rewrite wake_cmd;
      (destruct (c_atomic (gcmd c (wake_own c s g H))) as [w'|] eqn:EA; [|eapply StB_trans; [apply (own c s g) | apply StB_same; reflexivity]]).
    - apply own.
    - eapply StB_trans; [apply (own c s g)|]. set (H2 := wake_own c s g H) in *.
      destruct (IH w' (ucmd c (set_atomic None) H2)) as (O4 & L4 & Q4).
      split; [intros O2; apply O4, OrdH_set_atomic, O2; exact I | split; [pose proof (length_ucmd c (set_atomic None) H2); lia|]].
      intros z w0 Lz [A|W]; [|apply (Q4 z w0 Lz); right; exact W].
      destruct (Nat.eq_dec c z) as [->|Hne].
      + (* z's cell held w0: it is woken now *)
        rewrite EA in A. inversion A; subst w'. right. apply wake_wokenx.
      + apply (Q4 z w0 Lz). left. rewrite gcmd_ucmd_other by exact Hne. exact A.
  Qed.

  Lemma StB_uch c f H : StB H (uch c f H). Proof. apply StB_same; reflexivity. Qed.
  Lemma StB_utf u f H : StB H (utf u f H). Proof. apply StB_same; reflexivity. Qed.
  Lemma StB_note n H : StB H (note n H). Proof. apply StB_same; reflexivity. Qed.
  Lemma StB_drop_closed : drop_closed StB.
  Proof.
    constructor; first [exact (StB_refl b) | exact (StB_trans b) | exact StB_wake | intros; apply StB_same; reflexivity | idtac].
    intros c H. apply StB_ucmd; intros cm; rewrite dropped_eq; [reflexivity | intros t [[]|[]]].
  Qed.
  Lemma StB_push_ev c e H : StB H (push_ev c e H). Proof. unfold push_ev. plain. Qed.
  Lemma StB_push_eff c e H : StB H (push_eff c e H). Proof. unfold push_eff. plain. Qed.
  Lemma StB_push_hout e H : StB H (push_hout e H). Proof. apply StB_same; reflexivity. Qed.
  Lemma StB_add_gen H : StB H (add_gen H).
  Proof. apply StB_cmds_same; [reflexivity | split; [apply Rwoken_add_gen | apply incl_refl]]. Qed.
  Lemma StB_add_aborted n H : StB H (add_aborted n H). Proof. apply StB_same; reflexivity. Qed.
  Lemma StB_add_chan c H : StB H (add_chan c H). Proof. apply StB_same; reflexivity. Qed.
  Lemma StB_add_tflag t H : StB H (add_tflag t H). Proof. apply StB_same; reflexivity. Qed.

  Lemma StB_push_spawn c t H : host_gt c (t_fs t) -> StB H (ucmd c (fun cm => set_spawnq (c_spawnq cm ++ [t]) cm) H).
  Proof.
    intros Hg. apply StB_ucmd; [reflexivity|].
    intros cm t' T. unfold tasks_of in *; simpl in *. destruct T as [I|I]; [left; left; exact I|].
    apply in_app_or in I. destruct I as [I|[<-|[]]]; [left; right; exact I | right; exact Hg].
  Qed.
  Lemma StB_spawnq_clear c H : StB H (ucmd c (set_spawnq []) H).
  Proof.
    apply StB_ucmd; [reflexivity|].
    intros cm t T. left. unfold tasks_of in *; simpl in *. destruct T as [T|[]]. left; exact T.
  Qed.
  Lemma StB_spawn_one c t H : host_gt c (t_fs t) -> StB H (ucmd c (spawn_one t) H).
  Proof.
    intros Hg. apply StB_ucmd.
    - intros cm. unfold spawn_one, slab_insert. destruct cm; simpl. match goal with |- context[if ?b then _ else _] => destruct b end; reflexivity.
    - intros cm t' T. apply tasks_spawn_one in T. destruct T as [->|T]; [right; exact Hg | left; exact T].
  Qed.
  Lemma StB_slab_set c s t H : host_gt c (t_fs t) -> StB H (ucmd c (slab_set s t) H).
  Proof.
    intros Hg. apply StB_ucmd; [reflexivity|].
    intros cm t' T. apply tasks_slab_set in T. destruct T as [->|T]; [right; exact Hg | left; exact T].
  Qed.
  Lemma StB_add_cmd cnew H : (forall t, tasks_of cnew t -> host_gt (length (cmds H)) (t_fs t)) -> c_atomic cnew = None ->
    StB H (add_cmd cnew H).
  Proof.
    intros Tn An. split; [|split].
    - intros (O & Oa). split.
      + intros c t T. rewrite gcmd_add_cmd_cases in T. destruct (c <? length (cmds H)); [apply O; exact T|].
        destruct (c =? length (cmds H)) eqn:Ec; [apply Nat.eqb_eq in Ec; subst c; apply Tn; exact T | destruct T as [[]|[]]].
      + intros z w A. rewrite gcmd_add_cmd_cases in A. destruct (z <? length (cmds H)); [apply Oa; exact A|].
        destruct (z =? length (cmds H)); [rewrite An in A|]; discriminate.
    - cbn [cmds]. rewrite app_length. apply Nat.le_add_r.
    - intros z w0 _ [A|W]; [left | right; exact W]. rewrite gcmd_add_cmd; [exact A|].
      destruct (Nat.lt_ge_cases z (length (cmds H))) as [L|L]; [exact L | rewrite (gcmd_beyond z H L) in A; discriminate].
  Qed.
  Lemma StB_new_cmd names ep en m ex H cid H1 : new_cmd names ep en m ex H = (cid, H1) -> StB H H1.
  Proof.
    unfold new_cmd, new_tflag. intros [= _ <-].
    eapply StB_trans; [|apply (R_fold (StB_refl b) (StB_trans b))].
    - eapply StB_trans; [apply StB_add_tflag|].
      match goal with |- StB ?H0 (mkH _ _ (_ ++ [?c]) _ _ _ _ _) => apply (StB_add_cmd c H0) end; [|reflexivity].
      intros t T. unfold tasks_of in T; simpl in T. destruct T as [[E|[]]|[]]. inversion E; subst. exact I.
    - intros t Hh. cbv beta iota. eapply StB_trans; [apply StB_add_tflag | apply StB_push_spawn; exact I].
  Qed.

  Definition StB_req_poll c := R_req_poll StB_drop_closed c (StB_push_eff c).
  Definition StB_sub_poll c := R_sub_poll StB_drop_closed c (StB_push_eff c) StB_push_hout.
  Lemma StB_finish_task cid s t H : StB H (finish_task cid s t H).
  Proof.
    eapply StB_trans; [|apply (R_finish_task_tail StB_drop_closed)].
    apply StB_ucmd; [reflexivity|]. intros cm t' T. left. apply tasks_slab_remove in T. exact T.
  Qed.
End Steps.

Definition polled (c : nat) (w : waker) (r : pres) (H' : heap) : Prop :=
  match r with
  | Pend fs' => host_gt c fs' /\ (forall x me mv k, f_leaf fs' = LHost x me mv k -> Q x w H')
  | Rdy => True
  end.
Definition pollB (F : rtfuns) : Prop :=
  forall c w fs H r H', c < length (cmds H) -> host_gt c fs -> waker_in c w -> OrdH H -> rpoll F c w fs H = Some (r, H') ->
    StB (S c) H H' /\ polled c w r H'.
Definition nextB (F : rtfuns) : Prop :=
  forall x w H r H', waker_lt w x -> OrdH H -> rpoll_next F x w H = Some (r, H') -> StB x H H' /\ (r = PNPending -> Q x w H').
Definition settleB (F : rtfuns) : Prop := forall c H H', OrdH H -> rsettle F c H = Some H' -> StB (S c) H H'.
Definition loopB (F : rtfuns) : Prop := forall c H H', OrdH H -> rloop F c H = Some H' -> StB (S c) H H'.
Definition drainB (F : rtfuns) : Prop := forall c H H', OrdH H -> rdrain F c H = Some H' -> StB (S c) H H'.
Definition runB (F : rtfuns) : Prop := forall c s H r H', OrdH H -> rrun_task F c s H = Some (r, H') -> StB (S c) H H'.
Definition specB (F : rtfuns) : Prop := pollB F /\ nextB F /\ settleB F /\ loopB F /\ drainB F /\ runB F.

(* the [idtac] keeps the match from running when st1 is passed to [peel] *)
Ltac st1 :=
  idtac; lazymatch goal with
  | |- StB _ _ (push_ev _ _ _) => apply StB_push_ev
  | |- StB _ _ (push_eff _ _ _) => apply StB_push_eff
  | |- StB _ _ (push_hout _ _) => apply StB_push_hout
  | |- StB _ _ (note _ _) => apply StB_note
  | |- StB _ _ (add_aborted _ _) => apply StB_add_aborted
  | |- StB _ _ (uch _ _ _) => apply StB_uch
  | |- StB _ _ (chan_reg _ _ _) => apply StB_uch
  | |- StB _ _ (chan_drop_rx _ _) => apply StB_uch
  | |- StB _ _ (utf _ _ _) => apply StB_utf
  | |- StB _ _ (wake _ _ _) => apply StB_wake
  | |- StB _ _ (drop_cmd _ _ _) => apply (R_drop_cmd (StB_drop_closed _))
  | |- StB _ _ (sub_drop _ _) => apply (R_sub_drop (StB_drop_closed _))
  | |- StB _ _ (ucmd _ (fun cm => set_spawnq (c_spawnq cm ++ [_]) cm) _) => apply StB_push_spawn; exact I
  | |- StB _ _ (mkH _ _ _ (_ ++ _) _ _ _ _) => apply StB_add_gen
  | |- StB _ _ (mkH (_ ++ _) _ _ _ _ _ _ _) => apply StB_add_chan
  | |- StB _ _ (mkH _ (_ ++ _) _ _ _ _ _ _) => apply StB_add_tflag
  end.
(* what is left of StB b H (op1 (op2 (.. H1))), StB b H H1, [peel] takes from the context: S01 : StB b H H1, or S01
   with S12 : StB b H1 H2 *)
Ltac st := peel StB_refl StB_trans ltac:(st1).

Lemma specB0 : specB funs0.
Proof. unfold specB. split; [|split; [|split; [|split; [|split]]]]; intros ?; simpl; intros; discriminate. Qed.

Lemma poll_on F c w H : pollB F -> c < length (cmds H) -> waker_in c w -> OrdH H ->
  forall fs1 H1 r H', StB (S c) H H1 -> host_gt c fs1 -> rpoll F c w fs1 H1 = Some (r, H') -> StB (S c) H H' /\ polled c w r H'.
Proof.
  intros IHp Lc Win O fs1 H1 r H' S01 G1 E.
  destruct (IHp c w fs1 H1 r H' (StB_len _ _ _ _ S01 Lc) G1 Win (StB_ord _ _ _ S01 O) E) as (S1 & R).
  split; [eapply StB_trans; [exact S01 | exact S1] | exact R].
Qed.
(* On : poll_on at this poll; E : rpoll F c w fs1 H1 = Some (r, H'); G1 : host_gt c fs1 *)
Ltac rec_poll On G1 E := eapply On; [ | | exact E]; [st | exact G1].
(* E : Some (Pend fs', H1) = Some (r, H'), where fs' has a new leaf that hosts nothing, or is fs itself
   (Hg : host_gt c fs, EL : f_leaf fs = a leaf that hosts nothing) *)
Ltac ret_pend Hg EL E :=
  injection E as <- <-; split; [st | split; [first [exact I | exact Hg] | intros ? ? ? ? EL'; first [discriminate EL' | rewrite EL in EL'; discriminate EL']]].

(* the leaves in the order of Rt.leaf: LRun, LReq, LStr, LJoin, LHost, LYield, LLeg, LBoth, LRace *)
Lemma poll_step F : pollB F -> nextB F -> pollB (step_funs F).
Proof.
  intros IHp IHn c w fs H r H' Lc Hg Win O E. cbn [step_funs rpoll] in E. unfold poll_body in E.
  pose proof (poll_on F c w H IHp Lc Win O) as On.
  destruct (f_leaf fs) as [t|sent dead tg v ch x k| |u k|cid meff mev k|n k|lsent ltg lv lch lx k|qa qb x1 x2 k|qa qb x k] eqn:EL.
  - (* LRun: a hosted command's id is the table's length, which is above c *)
    destruct t; unfold new_chan, new_tflag in E; cbv beta iota in E;
      [ destruct (f_stack fs); [injection E as <- <-; split; [apply StB_refl | exact I]|]; rec_poll On I E | rec_poll On I E ..
      | destruct (new_cmd names (Some (c_epoch (gcmd c H))) (f_env fs) t1 extra H) as [cid H1] eqn:E1;
        pose proof (new_cmd_cid _ _ _ _ _ _ _ _ E1) as ->; apply (StB_new_cmd (S c)) in E1 as S01; rec_poll On Lc E ].
  - destruct (req_poll c w sent dead tg v ch H) as [[[o s'] d'] H1] eqn:E1. apply (StB_req_poll (S c)) in E1 as S01.
    destruct o; [rec_poll On I E | ret_pend Hg EL E].
  - destruct (f_stack fs) as [|fr rest] eqn:ES; [injection E as <- <-; split; [apply StB_refl | exact I]|].
    destruct (negb (fr_sent fr)); [ret_pend Hg EL E|].
    destruct (ch_buf (gch (fr_ch fr) H)); [destruct (ch_tx (gch (fr_ch fr) H))|]; [ret_pend Hg EL E | rec_poll On I E..].
  - destruct (tf_fin (gtf u H)); [rec_poll On I E|].
    destruct (tf_alive (gtf u H)); [ret_pend Hg EL E | rec_poll On I E].
  - (* LHost *)
    assert (Gx : c < cid) by (unfold host_gt in Hg; rewrite EL in Hg; exact Hg).
    destruct (rpoll_next F cid w H) as [[rr H1]|] eqn:E1; [|discriminate].
    assert (Wl : waker_lt w cid) by (destruct w as [c0 s0 g0|q]; cbn in *; [subst; lia | exact I]).
    destruct (IHn cid w H rr H1 Wl O E1) as (S01 & Qp). apply (StB_le _ (S c)) in S01; [|exact Gx].
    destruct rr as [| |e|e].
    + injection E as <- <-. split; [exact S01 | split; [exact Hg|]].
      intros x' me mv k' EL'. rewrite EL in EL'. inversion EL'; subst. apply Qp. reflexivity.
    + (* Done: the continuation hosts nothing yet *)
      rec_poll On I E.
    + rec_poll On Hg E.
    + rec_poll On Hg E.
  - destruct n; [rec_poll On I E|]. ret_pend Hg EL E.
  - set (H1 := if lsent then H else push_hout (mkEff ltg lv [] (RLegacy lch)) H) in *.
    assert (S01 : StB (S c) H H1) by (subst H1; destruct lsent; st).
    destruct (ch_buf (gch lch H1)); [ret_pend Hg EL E | rec_poll On I E].
  - destruct (sub_poll c w qa H) as [a' H1] eqn:E1. destruct (sub_poll c w qb H1) as [b' H2] eqn:E2.
    apply (StB_sub_poll (S c)) in E1 as S01. apply (StB_sub_poll (S c)) in E2 as S12.
    destruct a'; try (ret_pend Hg EL E).
    destruct b'; try (ret_pend Hg EL E).
    rec_poll On I E.
  - destruct (sub_poll c w qa H) as [a' H1] eqn:E1. destruct (sub_poll c w qb H1) as [b' H2] eqn:E2.
    apply (StB_sub_poll (S c)) in E1 as S01. apply (StB_sub_poll (S c)) in E2 as S12.
    destruct a'; [|rec_poll On I E| |]; (destruct b'; [|rec_poll On I E| |]); ret_pend Hg EL E.
Qed.
(* x's cell now holds w, and settling x keeps that or wakes w *)
Lemma next_step F : settleB F -> nextB (step_funs F).
Proof.
  intros IHs x w H r H' Wl O E. destruct (poll_next_inv F x w H r H' E) as (H1 & E1 & R).
  assert (S0 : StB x H (ucmd x (set_atomic (Some w)) H)) by (apply StB_set_atomic; [apply le_n | exact Wl]).
  pose proof (IHs x _ H1 (StB_ord _ _ _ S0 O) E1) as S1.
  assert (Q1 : Q x w H1) by (apply (proj2 (proj2 S1) x w (Nat.lt_succ_diag_r x)); left; rewrite gcmd_ucmd_same; reflexivity).
  assert (S01 : StB x H H1) by (eapply StB_trans; [exact S0 | apply (StB_le (S x)); [apply Nat.le_succ_diag_r | exact S1]]).
  destruct r as [| |e|e].
  3: destruct R as (rest & _ & _ & ->); split; [eapply StB_trans; [exact S01 | plain] | discriminate].
  3: destruct R as (rest & _ & ->); split; [eapply StB_trans; [exact S01 | plain] | discriminate].
  (* Pending and Done: is_done() has settled x once more *)
  all: destruct R as (_ & _ & E2); pose proof (IHs x H1 H' (StB_ord _ _ _ S01 O) E2) as S2;
    (split; [eapply StB_trans; [exact S01 | apply (StB_le (S x)); [apply Nat.le_succ_diag_r | exact S2]]|]).
  - intros _. apply (proj2 (proj2 S2) x w (Nat.lt_succ_diag_r x)), Q1.
  - discriminate.
Qed.
Lemma settle_step F : loopB F -> settleB (step_funs F).
Proof.
  intros IHl c H H' O E. rewrite rsettle_step in E.
  destruct (was_aborted c H); [|eapply IHl; eauto].
  injection E as <-.
  eapply StB_trans; [|apply StB_note]. eapply StB_trans; [|apply (R_clear_tasks (StB_drop_closed _))].
  apply StB_ucmd; [reflexivity|].
  intros cm t T. left. unfold tasks_of in *; simpl in *. destruct T as [[]|T]; right; exact T.
Qed.
Lemma loop_step F : loopB F -> drainB F -> loopB (step_funs F).
Proof.
  intros IHl IHd c H H' O E. cbn [step_funs rloop] in E. unfold loop_body in E.
  match type of E with context[fold_left ?g ?l ?H0] => set (H1 := fold_left g l H0) in * end.
  assert (S01 : StB (S c) H H1).
  { subst H1. apply (StB_trans _ _ (ucmd c (set_spawnq []) H)); [apply StB_spawnq_clear|].
    assert (Gl : Forall (fun t => host_gt c (t_fs t)) (c_spawnq (gcmd c H))) by (apply Forall_forall; intros t It; apply (proj1 O c t); right; exact It).
    generalize (ucmd c (set_spawnq []) H). revert Gl. generalize (c_spawnq (gcmd c H)) as l.
    induction 1 as [|t l Gt _ IHl0]; intros Hx; simpl; [apply StB_refl|].
    eapply StB_trans; [apply StB_spawn_one, Gt | apply IHl0]. }
  destruct (c_ready (gcmd c H1)); [injection E as <-; exact S01|].
  destruct (rdrain F c H1) as [H2|] eqn:E2; [|discriminate].
  pose proof (StB_ord _ _ _ S01 O) as O1.
  pose proof (IHd c H1 H2 O1 E2) as S2.
  pose proof (IHl c H2 H' (StB_ord _ _ _ S2 O1) E) as S3.
  eapply StB_trans; [exact S01|]. eapply StB_trans; [exact S2 | exact S3].
Qed.
Lemma drain_step F : drainB F -> runB F -> drainB (step_funs F).
Proof.
  intros IHd IHr c H H' O E. cbn [step_funs rdrain] in E. unfold drain_body in E.
  destruct (c_ready (gcmd c H)) as [|s rest]; [injection E as <-; apply StB_refl|].
  assert (S0 : StB (S c) H (ucmd c (set_ready rest) H)) by plain.
  destruct (rrun_task F c s (ucmd c (set_ready rest) H)) as [[st H2]|] eqn:E2; [|discriminate].
  pose proof (IHr c s _ st H2 (StB_ord _ _ _ S0 O) E2) as S2.
  assert (S02 : StB (S c) H H2) by (eapply StB_trans; [exact S0 | exact S2]).
  match type of E with rdrain F c ?H3 = _ => assert (S03 : StB (S c) H H3) end.
  { destruct st; try exact S02; (destruct (slab_get s (gcmd c H2)) as [t|]; [eapply StB_trans; [exact S02 | apply StB_finish_task] | exact S02]). }
  pose proof (IHd c _ H' (StB_ord _ _ _ S03 O) E) as S4.
  eapply StB_trans; [exact S03 | exact S4].
Qed.
Lemma run_step F : pollB F -> runB (step_funs F).
Proof.
  intros IHp c s H r H' O E. cbn [step_funs rrun_task] in E. unfold run_task_body in E.
  destruct (slab_get s (gcmd c H)) as [t|] eqn:ES; [|injection E as <- <-; apply StB_note].
  match type of E with (if ?b then _ else _) = _ => destruct b end; [injection E as <- <-; apply StB_note|].
  pose proof (slab_get_lt _ _ _ _ ES) as Lc. pose proof (proj1 O c t (slab_get_tasks _ _ _ ES)) as Hg.
  match type of E with context[rpoll F c ?w ?fs ?H1] => destruct (rpoll F c w fs H1) as [[pr H2]|] eqn:E2; [|discriminate] end.
  pose proof (StB_add_gen (S c) H) as S0.
  match type of E2 with rpoll _ _ ?w1 _ _ = _ => destruct (poll_on F c w1 H IHp Lc eq_refl O _ _ _ _ S0 Hg E2) as (S02 & R) end.
  destruct pr as [fs'|].
  - destruct R as (Hg' & _).
    assert (S03 : StB (S c) H (ucmd c (slab_set s (mkT (t_uid t) fs')) H2)) by (eapply StB_trans; [exact S02 | apply StB_slab_set; exact Hg']).
    match type of E with context[if ?b then _ else _] => destruct b end; injection E as <- <-; [exact S03 | eapply StB_trans; [exact S03 | apply StB_note]].
  - injection E as <- <-. eapply StB_trans; [exact S02 | apply StB_slab_set; exact I].
Qed.

Theorem specB_all : forall fuel, specB (funs fuel).
Proof.
  induction fuel as [|f (p & n & s & l & d & r)]; [apply specB0|].
  exact (conj (poll_step _ p n) (conj (next_step _ s) (conj (settle_step _ l) (conj (loop_step _ l d) (conj (drain_step _ d r) (run_step _ p)))))).
Qed.

(* specB read command by command: for one command P and one waker w0, with the bound as a side condition *)
Definition St (P : nat) (w0 : waker) (H H' : heap) : Prop :=
  (OrdH H -> OrdH H') /\ (Q P w0 H -> Q P w0 H') /\ length (cmds H) <= length (cmds H').
Lemma StB_St b P w0 H H' : P < b -> StB b H H' -> St P w0 H H'.
Proof. intros L (A & B & C). split; [exact A | split; [apply C, L | exact B]]. Qed.
Definition specH (F : rtfuns) : Prop :=
  (forall P w0 c w fs H r H', P <= c -> c < length (cmds H) -> host_gt c fs -> waker_in c w -> OrdH H ->
      rpoll F c w fs H = Some (r, H') ->
      St P w0 H H' /\
      match r with
      | Pend fs' => host_gt c fs' /\ (forall x me mv k, f_leaf fs' = LHost x me mv k -> Q x w H')
      | Rdy => True
      end) /\
  (forall P w0 x w H r H', P < x -> waker_lt w x -> OrdH H -> rpoll_next F x w H = Some (r, H') ->
      St P w0 H H' /\ (r = PNPending -> Q x w H')) /\
  (forall P w0 c H H', P <= c -> OrdH H -> rsettle F c H = Some H' -> St P w0 H H') /\
  (forall P w0 c H H', P <= c -> OrdH H -> rloop F c H = Some H' -> St P w0 H H') /\
  (forall P w0 c H H', P <= c -> OrdH H -> rdrain F c H = Some H' -> St P w0 H H') /\
  (forall P w0 c s H r H', P <= c -> OrdH H -> rrun_task F c s H = Some (r, H') -> St P w0 H H').

Theorem specH_all : forall fuel, specH (funs fuel).
Proof.
  intros fuel. destruct (specB_all fuel) as (Bp & Bn & Bs & Bl & Bd & Br).
  split; [|split; [|split; [|split; [|split]]]].
  3-6: intros P w0 c; intros; apply (StB_St (S c)); [apply le_n_S; assumption | eauto].
  - intros P w0 c w fs H r H' Pc Lc Hg Win O E. destruct (Bp c w fs H r H' Lc Hg Win O E) as (B & R).
    split; [apply (StB_St (S c)); [apply le_n_S, Pc | exact B] | exact R].
  - intros P w0 x w H r H' Px Wl O E. destruct (Bn x w H r H' Wl O E) as (B & R). split; [apply (StB_St x _ _ _ _ Px B) | exact R].
Qed.

Theorem poll_registers_host : forall fuel c w fs H fs' H' x me mv k,
  c < length (cmds H) -> host_gt c fs -> waker_in c w -> OrdH H ->
  poll fuel c w fs H = Some (Pend fs', H') -> f_leaf fs' = LHost x me mv k ->
  c < x /\ Q x w H' /\ OrdH H'.
Proof.
  intros fuel c w fs H fs' H' x me mv k Lc Hg Win O E EL.
  destruct (specB_all fuel) as (Bp & _).
  destruct (Bp c w fs H (Pend fs') H' Lc Hg Win O E) as (S1 & Hg' & Qx).
  split; [unfold host_gt in Hg'; rewrite EL in Hg'; exact Hg' | split; [eapply Qx; exact EL | apply (StB_ord _ _ _ S1 O)]].
Qed.

(* run_task never discards a task that hosts a command: what is evicted is blocked on requests whose
   sender is gone, and on nothing else (Evict.evict_sound without its exception for the hosting leaf) *)
Definition evictable_strict (fs' : fstate) : Prop :=
  match f_leaf fs' with
  | LReq _ dead _ _ _ _ _ => dead = true
  | LBoth a b _ _ _ | LRace a b _ _ => closed_sub a /\ closed_sub b
  | LHost _ _ _ _ | LRun _ | LStr | LJoin _ _ | LYield _ _ | LLeg _ _ _ _ _ _ => False
  end.

Theorem evict_sound_full : forall fuel cid slot H H',
  OrdH H -> run_task (S fuel) cid slot H = Some (Cancelled, H') ->
  exists t, slab_get slot (gcmd cid H') = Some t /\ evictable_strict (t_fs t).
Proof.
  intros fuel cid slot H H' O E.
  destruct (run_task_cancelled_inv (funs fuel) _ _ _ _ E) as (t & fs' & H2 & ES & E2 & EW & EHo & ->).
  exists (mkT (t_uid t) fs'). split; [apply slab_get_written|]. cbn [t_fs].
  pose proof (evicted_evictable _ _ _ _ _ _ _ _ _ E2 EW EHo) as Ev. unfold evictable in Ev. unfold evictable_strict.
  destruct (f_leaf fs') as [t0|sent dead tg v ch x k| |u k|x meff mev k|n k|lsent ltg lv lch lx k|qa qb x1 x2 k|qa qb x k] eqn:EL; try exact Ev.
  (* the hosting leaf *)
  set (g := length (woken H)) in *.
  destruct (poll_registers_host fuel cid (WCmd cid slot g) (t_fs t) (add_gen H) fs' H2 x meff mev k (slab_get_lt _ _ _ _ ES)
              (proj1 O cid t (slab_get_tasks _ _ _ ES)) eq_refl (StB_ord 0 _ _ (StB_add_gen 0 H) O) E2 EL) as (Gx & [A|W] & _).
  - (* the cell still holds this poll's waker: a clone survives *)
    rewrite (held_cell x (WCmd cid slot g) g) in EHo; [discriminate | | apply Nat.eqb_refl].
    rewrite gcmd_ucmd_other by lia. exact A.
  - (* it was woken during the poll *)
    exact (eq_true_false_abs _ W EW).
Qed.

Lemma OrdH_H0 : OrdH H0.
Proof.
  split; [intros c t T; unfold gcmd, getd in T; simpl in T; destruct c; destruct T as [[]|[]]|].
  intros z w A. unfold gcmd, getd in A. simpl in A. destruct z; discriminate.
Qed.
Lemma OrdH_new_cmd names ep en m ex H cid H1 : new_cmd names ep en m ex H = (cid, H1) -> OrdH H -> OrdH H1.
Proof. intros E. apply (StB_ord 0), (StB_new_cmd 0 _ _ _ _ _ _ _ _ E). Qed.
Lemma OrdH_settle fuel c H H' : settle fuel c H = Some H' -> OrdH H -> OrdH H'.
Proof. intros E O. destruct (specB_all fuel) as (_ & _ & Bs & _). exact (StB_ord _ _ _ (Bs c H H' O E) O). Qed.
Lemma OrdH_resolve_req e v H : OrdH H -> OrdH (snd (resolve_req e v H)).
Proof.
  intros O. assert (Sd : forall ch, OrdH (snd (chan_send ch v H))) by (intros ch; apply (StB_ord 0 _ _ (R_chan_send (StB_drop_closed 0) ch v H) O)).
  unfold resolve_req. destruct (e_res e) as [|ch|ch|ch]; [exact O | | |];
    (specialize (Sd ch); destruct (chan_send ch v H) as [b H1]; cbn [snd] in *); [|exact Sd..].
  apply (StB_ord 0 _ _ (R_chan_drop_tx (StB_drop_closed 0) ch H1) Sd).
Qed.

Theorem dstep_OrdH fuel top a st o st' : dstep fuel top a st = Some (o, st') -> OrdH (d_H st) -> OrdH (d_H st').
Proof.
  apply (dstep_R fuel top (fun H H' => OrdH H -> OrdH H') (fun H O => O) (fun a b c A B O => B (A O))).
  - intros H H'. apply OrdH_settle.
  - intros H. apply (StB_ord 0). plain.
  - intros H. apply (StB_ord 0). plain.
  - intros e v H. apply OrdH_resolve_req.
  - intros e H. apply (StB_ord 0), (R_drop_req (StB_drop_closed 0)).
  - intros n H. apply (StB_ord 0), StB_add_aborted.
  - intros t H. apply (StB_ord 0). unfold new_tflag; cbn [snd]. st.
Qed.

Inductive dreach (fuel top : nat) : dstate -> dstate -> Prop :=
| dr_refl st : dreach fuel top st st
| dr_step st a o st1 st2 : dstep fuel top a st = Some (o, st1) -> dreach fuel top st1 st2 -> dreach fuel top st st2.
Theorem dreach_OrdH fuel top st st' : dreach fuel top st st' -> OrdH (d_H st) -> OrdH (d_H st').
Proof. induction 1 as [st|st a o st1 st2 E _ IH]; intros O; [exact O | apply IH; eapply dstep_OrdH; eauto]. Qed.

(* the settle hidden in is_done() at the end of poll_next adds no output: either the command has been aborted
   (its queues can only shrink) or its own queues are empty and there is nothing to run *)
Lemma second_settle_no_output fuel x H1 H2 :
  x < length (cmds H1) -> c_evs (gcmd x H1) = [] -> c_eff (gcmd x H1) = [] ->
  (was_aborted x H1 = false -> c_ready (gcmd x H1) = [] /\ c_spawnq (gcmd x H1) = []) ->
  settle fuel x H1 = Some H2 ->
  c_evs (gcmd x H2) = [] /\ c_eff (gcmd x H2) = [] /\
  (was_aborted x H1 = false -> c_ready (gcmd x H2) = [] /\ c_spawnq (gcmd x H2) = []).
Proof.
  intros L EV EF Qu E. destruct (was_aborted x H1) eqn:A.
  - destruct (aborted_outputs_only_shrink_settle x fuel x H1 H2 L A E) as (S1 & S2).
    rewrite EF in S1. rewrite EV in S2. split; [apply suffix_of_nil; exact S2 | split; [apply suffix_of_nil; exact S1 | discriminate]].
  - destruct (Qu eq_refl) as (Er & Es).
    (* with fuel 1 settle cannot answer: its loop has none left *)
    destruct fuel as [|[|f]]; [discriminate | unfold settle in E; cbn [funs] in E; rewrite rsettle_step, A in E; discriminate|].
    rewrite (settle_of_a_quiet_command_changes_nothing f x H1 L A Er Es) in E. injection E as <-.
    split; [exact EV | split; [exact EF | intros _; split; [exact Er | exact Es]]].
Qed.

(* When Stream::poll_next of command x answers Pending to its host (waker w), x is quiet (unless aborted: then its
   tasks are gone) and x's cell still holds w or w has been woken - so whatever happens to x later either finds the
   host subscribed (a wake queues the host's task: Chain.wake_queues_task) or the host is queued already.  One
   layer of "a call runs to quiescence and no wake-up is lost between layers". *)
Theorem poll_next_pending_quiet_and_subscribed_any : forall fuel x w H H',
  OrdH H -> waker_lt w x -> x < length (cmds H) -> poll_next (S fuel) x w H = Some (PNPending, H') ->
  c_evs (gcmd x H') = [] /\ c_eff (gcmd x H') = [] /\
  (was_aborted x H' = false -> c_ready (gcmd x H') = [] /\ c_spawnq (gcmd x H') = []) /\
  Q x w H' /\ OrdH H'.
Proof.
  intros fuel x w H H' O Wl L E.
  destruct (specB_all (S fuel)) as (_ & Bn & _). destruct (Bn x w H PNPending H' Wl O E) as (S02 & Qx).
  destruct (specB_all fuel) as (_ & _ & Bs & _).
  destruct (poll_next_inv (funs fuel) x w H _ _ E) as (H1 & E1 & EV1 & EF1 & E2).
  pose proof (Nat.lt_le_trans _ _ _ L (length_ucmd x (set_atomic (Some w)) H)) as L0.
  pose proof (StB_len _ _ _ _ (Bs x _ H1 (OrdH_set_atomic x (Some w) H Wl O) E1) L0) as L1.
  assert (Qu : was_aborted x H1 = false -> c_ready (gcmd x H1) = [] /\ c_spawnq (gcmd x H1) = []).
  { intros A1. eapply (settle_quiescent fuel x); [|exact E1].
    eapply was_aborted_false_back; [exact L0 | apply (proj1 (proj2 (proj2 (frame_meta fuel))) _ _ _ E1) | exact A1]. }
  destruct (second_settle_no_output fuel x H1 H' L1 EV1 EF1 Qu E2) as (EV2 & EF2 & Qu2).
  split; [exact EV2 | split; [exact EF2 | split; [|split; [exact (Qx eq_refl) | exact (StB_ord _ _ _ S02 O)]]]].
  intros A2. apply Qu2. eapply was_aborted_false_back; [exact L1 | apply (proj1 (proj2 (proj2 (frame_meta fuel))) _ _ _ E2) | exact A2].
Qed.
(* the instance for a hosted command, whose id is never 0 *)
Theorem poll_next_pending_quiet_and_subscribed : forall fuel x' w H H',
  OrdH H -> waker_lt w (S x') -> S x' < length (cmds H) -> poll_next (S fuel) (S x') w H = Some (PNPending, H') ->
  c_evs (gcmd (S x') H') = [] /\ c_eff (gcmd (S x') H') = [] /\
  (was_aborted (S x') H' = false -> c_ready (gcmd (S x') H') = [] /\ c_spawnq (gcmd (S x') H') = []) /\
  Q (S x') w H' /\ OrdH H'.
Proof. intros fuel x'. apply poll_next_pending_quiet_and_subscribed_any. Qed.

(* Wakes start with fuel [wfuel w] = S (the waker's command id).  The cell of a command only ever holds a waker of a
   command created earlier, so the ids along a chain of hosts strictly decrease and the fuel cannot run out: more
   fuel changes nothing.  The model has no bound on the nesting depth. *)
Theorem wake_one_more_changes_nothing : forall f w H, AOrd H -> wfuel w <= f -> wake (S f) w H = wake f w H.
Proof.
  induction f as [|f IH]; intros [c s g|q] H A L; rewrite ?wake_exec; try reflexivity; cbn [wfuel] in L; [lia|].
  rewrite (wake_cmd (S (S f))), (wake_cmd (S f)).
  (* set_woken leaves the commands alone *)
  assert (A2 : AOrd (wake_own c s g H)).
  { change (AOrd (if c_alive (gcmd c H) then ucmd c (fun cm => set_ready (c_ready cm ++ [s]) cm) H else H)).
    destruct (c_alive (gcmd c H)); [apply AOrd_ucmd; [intros w' E; left; exact E | exact A] | exact A]. }
  destruct (c_atomic (gcmd c (wake_own c s g H))) as [w'|] eqn:EA; [|reflexivity].
  apply IH.
  - apply AOrd_ucmd; [discriminate | exact A2].
  - pose proof (A2 c w' EA) as Lt. destruct w' as [c' s' g'|q']; cbn [wfuel waker_lt] in *; lia.
Qed.
Corollary wake_fuel_suffices : forall n w H, AOrd H -> wake (n + wfuel w) w H = wake (wfuel w) w H.
Proof. intros n w H A. apply (stable_from (fun f => wake f w H)). intros f L. apply wake_one_more_changes_nothing; assumption. Qed.
