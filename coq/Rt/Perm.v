(* What only ever moves one way (an instance of the frame principle).  Through every step of the runtime -
   waking, channel operations, drop glue, polling any task of any command at any nesting level, settling,
   hosting - for every fuel and every heap:
     - a closed receiving end of a channel stays closed, and so does a closed sending end
       (a dropped request can never be delivered to again; a dropped receiver never reappears);
     - a task's abort flag stays set, its finished flag stays set;
     - the flag of a task that is gone stays that of a task that is gone, a dropped Command stays dropped;
     - nothing is ever deallocated (tables only grow).
   These are the "final" halves of C06 and the "released" half of C13, and C07's "a finished task stays
   finished" - stated of the model, proved once by the induction of Frame.v. *)
From Coq Require Import List Arith Bool Lia.
From Crux Require Import Rt.Lang Rt.Rt Rt.Tables Rt.Frame.
Import ListNotations.

(* An entry beyond a table reads as the default.  chan0 and tf0 have open ends and no flag set, so pm_rx .. pm_fin say
   nothing of an entry that is not there yet; but tf0 and cmd0 read "gone" and "dropped", and what is allocated in
   that place next is alive: pm_gone and pm_dead speak of existing entries only *)
Record Rperm (H H' : heap) : Prop := mkRperm {
  pm_chans : length (chans H) <= length (chans H');
  pm_tfl : length (tfl H) <= length (tfl H');
  pm_cmds : length (cmds H) <= length (cmds H');
  pm_rx : forall ch, ch_rx (gch ch H) = false -> ch_rx (gch ch H') = false;
  pm_tx : forall ch, ch_tx (gch ch H) = false -> ch_tx (gch ch H') = false;
  pm_abort : forall u, tf_abort (gtf u H) = true -> tf_abort (gtf u H') = true;
  pm_fin : forall u, tf_fin (gtf u H) = true -> tf_fin (gtf u H') = true;
  pm_gone : forall u, u < length (tfl H) -> tf_alive (gtf u H) = false -> tf_alive (gtf u H') = false;
  pm_dead : forall c, c < length (cmds H) -> c_alive (gcmd c H) = false -> c_alive (gcmd c H') = false
}.

Lemma Rperm_refl H : Rperm H H.
Proof. constructor; auto. Qed.
Lemma Rperm_trans a b c : Rperm a b -> Rperm b c -> Rperm a c.
Proof.
  intros [A1 A2 A3 A4 A5 A6 A7 A8 A9] [B1 B2 B3 B4 B5 B6 B7 B8 B9]. constructor; try lia; auto.
  - intros u L E. apply B8; [lia | apply A8; assumption].
  - intros x L E. apply B9; [lia | apply A9; assumption].
Qed.
Lemma Rperm_same H H' : chans H' = chans H -> tfl H' = tfl H -> cmds H' = cmds H -> Rperm H H'.
Proof. intros E1 E2 E3. constructor; unfold gch, gtf, gcmd; rewrite ?E1, ?E2, ?E3; auto. Qed.

Lemma Rperm_ucmd c f H : good f -> Rperm H (ucmd c f H).
Proof.
  intros G. constructor; try (unfold ucmd; simpl; auto; fail); [apply length_ucmd|].
  intros x _. apply (gcmd_ucmd_pres (fun cm => c_alive cm = false)), G.
Qed.
Lemma Rperm_uch c f H : goodch f -> Rperm H (uch c f H).
Proof.
  intros G. constructor; try (unfold uch; simpl; auto; fail); [unfold uch; simpl; apply length_updd | |]; intros x.
  - apply (gch_uch_pres (fun y => ch_rx y = false)), G.
  - apply (gch_uch_pres (fun y => ch_tx y = false)), G.
Qed.
Lemma Rperm_utf u f H : goodtf f -> Rperm H (utf u f H).
Proof.
  intros G. constructor; try (unfold utf; simpl; auto; fail); [unfold utf; simpl; apply length_updd | | |]; intros x.
  - apply (gtf_utf_pres (fun t => tf_abort t = true)), G.
  - apply (gtf_utf_pres (fun t => tf_fin t = true)), G.
  - intros _. apply (gtf_utf_pres (fun t => tf_alive t = false)), G.
Qed.

Lemma nth_app_keep {A} (d : A) n l x : n < length l \/ nth n l d = d -> nth n (l ++ [x]) d = nth n l d \/ length l <= n.
Proof.
  intros _. destruct (Nat.lt_ge_cases n (length l)) as [L|L]; [left; apply app_nth1; exact L | right; exact L].
Qed.

Lemma getd_app_keep {A} (P : A -> Prop) d n (l : list A) x : ~ P d -> P (getd d n l) -> P (getd d n (l ++ [x])).
Proof.
  unfold getd. intros Nd Pn. destruct (Nat.lt_ge_cases n (length l)) as [L|L]; [rewrite app_nth1 by exact L; exact Pn|].
  rewrite nth_overflow in Pn by exact L. contradiction.
Qed.
Lemma Rperm_add_chan c H : Rperm H (mkH (chans H ++ [c]) (tfl H) (cmds H) (woken H) (xready H) (aborted H) (log H) (hout H)).
Proof.
  constructor; simpl; auto; try (rewrite app_length; simpl; lia); intros ch; unfold gch; cbn [chans].
  - apply (getd_app_keep (fun y => ch_rx y = false)). discriminate.
  - apply (getd_app_keep (fun y => ch_tx y = false)). discriminate.
Qed.
Lemma Rperm_add_tflag t H : Rperm H (mkH (chans H) (tfl H ++ [t]) (cmds H) (woken H) (xready H) (aborted H) (log H) (hout H)).
Proof.
  constructor; simpl; auto; try (rewrite app_length; simpl; lia); intros u; unfold gtf; cbn [tfl].
  - apply (getd_app_keep (fun y => tf_abort y = true)). discriminate.
  - apply (getd_app_keep (fun y => tf_fin y = true)). discriminate.
  - intros L E. unfold getd. rewrite app_nth1 by exact L. exact E.
Qed.
Lemma Rperm_add_cmd c H : Rperm H (mkH (chans H) (tfl H) (cmds H ++ [c]) (woken H) (xready H) (aborted H) (log H) (hout H)).
Proof.
  constructor; simpl; auto; try (rewrite app_length; simpl; lia).
  intros x L E. unfold gcmd, getd in *; simpl. rewrite app_nth1 by exact L. exact E.
Qed.

Lemma Rperm_closed : frame_closed (fun _ => True) (fun _ => True) Rperm.
Proof.
  apply good_frame_closed;
    first [ exact Rperm_refl | exact Rperm_trans | exact Rperm_ucmd | exact Rperm_uch | exact Rperm_utf
          | exact Rperm_add_chan | exact Rperm_add_tflag | exact Rperm_add_cmd | intros; apply Rperm_same; reflexivity ].
Qed.
Definition Rperm_drop := fc_drop Rperm_closed.
Definition frame_perm := closed_spec Rperm_closed.

Lemma perm_wake fuel w H : Rperm H (wake fuel w H).
Proof. apply (dc_wake Rperm_drop). Qed.
Lemma perm_chan_send ch v H : Rperm H (snd (chan_send ch v H)).
Proof. apply (R_chan_send Rperm_drop). Qed.
Lemma perm_chan_drop_tx ch H : Rperm H (chan_drop_tx ch H).
Proof. apply (R_chan_drop_tx Rperm_drop). Qed.

Theorem perm_settle fuel cid H H' : settle fuel cid H = Some H' -> Rperm H H'.
Proof. apply (frame_perm fuel). Qed.
Theorem perm_poll_next fuel cid w H r H' : poll_next fuel cid w H = Some (r, H') -> Rperm H H'.
Proof. apply (frame_perm fuel). Qed.
Theorem perm_poll fuel c w fs H r H' : poll fuel c w fs H = Some (r, H') -> Rperm H H'.
Proof. apply (frame_perm fuel). Qed.
Theorem perm_run_task fuel cid s H r H' : run_task fuel cid s H = Some (r, H') -> Rperm H H'.
Proof. apply (frame_perm fuel). Qed.

(* a task whose abort flag is set is never polled again: run_task answers without calling poll *)
Theorem aborted_task_never_polled : forall F G cid slot H t,
  slab_get slot (gcmd cid H) = Some t -> tf_abort (gtf (t_uid t) H) = true ->
  rrun_task (step_funs F) cid slot H = Some (Completed, note B_AbortedBeforePoll H) /\
  rrun_task (step_funs F) cid slot H = rrun_task (step_funs G) cid slot H.
Proof.
  intros F G cid slot H t Es Ea. cbn [step_funs rrun_task]. unfold run_task_body. rewrite Es, Ea. cbn [orb]. split; reflexivity.
Qed.

(* a value sent to a request whose receiver is gone is refused and changes nothing but the coverage log;
   the receiver stays gone (pm_rx), so every later one is refused as well *)
Theorem send_to_closed_refused ch v H : ch_rx (gch ch H) = false -> chan_send ch v H = (false, note B_SendClosed H).
Proof. intros E. unfold chan_send. rewrite E. reflexivity. Qed.

Theorem drop_tx_closes ch H : ch_tx (gch ch (chan_drop_tx ch H)) = false.
Proof.
  unfold chan_drop_tx. destruct (ch_tx (gch ch H)) eqn:E; [|exact E].
  apply (pm_tx _ _ (R_wake_cell Rperm_drop ch _)). rewrite gch_uch_same. reflexivity.
Qed.
Theorem drop_rx_closes ch H : ch_rx (gch ch (chan_drop_rx ch H)) = false.
Proof. unfold chan_drop_rx. rewrite gch_uch_same. reflexivity. Qed.
Lemma perm_drop_cmd fuel cid H : Rperm H (drop_cmd fuel cid H).
Proof. apply (R_drop_cmd Rperm_drop). Qed.

(* dropping a Command value releases it: whatever its tasks' drop glue does meanwhile (closing
   receivers, dropping nested commands, waking whoever waited), the command is dead afterwards *)
Theorem drop_cmd_dead f cid H : cid < length (cmds H) -> c_alive (gcmd cid (drop_cmd (S f) cid H)) = false.
Proof.
  (* the record is marked dead first; the rest of the drop is drop glue, which never revives a command *)
  intros L.
  apply (pm_dead _ _ (R_drop_cmd_tail Rperm_drop f cid H (R_drop_fs Rperm_drop f)) cid); [eapply Nat.lt_le_trans; [exact L | apply length_ucmd]|].
  rewrite gcmd_ucmd_same, dropped_eq. reflexivity.
Qed.

Lemma grows_refl {A} (l : list A) : exists x, l = l ++ x.
Proof. exists []. symmetry. apply app_nil_r. Qed.
Lemma grows_trans {A} (a b c : list A) : (exists x, b = a ++ x) -> (exists y, c = b ++ y) -> exists z, c = a ++ z.
Proof. intros [x ->] [y ->]. exists (x ++ y). symmetry. apply app_assoc. Qed.

(* Effects reach the shell through the core's request channel (heap field hout: written by the executor task
   that forwards a hosted command's effects, and by capability contexts).  No step of the runtime ever removes
   or rewrites anything in it: what was requested stays requested, in order, until the call hands the whole
   channel over. *)
Definition Rhout (H H' : heap) : Prop := exists l, hout H' = hout H ++ l.
Lemma Rhout_refl H : Rhout H H. Proof. apply grows_refl. Qed.
Lemma Rhout_trans a b c : Rhout a b -> Rhout b c -> Rhout a c. Proof. apply grows_trans. Qed.
Lemma Rhout_same H H' : hout H' = hout H -> Rhout H H'.
Proof. intros E. unfold Rhout. rewrite E. apply grows_refl. Qed.
Lemma Rhout_closed : frame_closed (fun _ => True) (fun _ => True) Rhout.
Proof.
  apply good_frame_closed;
    first [ exact Rhout_refl | exact Rhout_trans | intros e H; exists [e]; reflexivity | intros; apply Rhout_same; reflexivity ].
Qed.
Definition frame_hout := closed_spec Rhout_closed.
Theorem hout_poll_next fuel cid w H r H' : poll_next fuel cid w H = Some (r, H') -> Rhout H H'.
Proof. apply (frame_hout fuel). Qed.
Lemma hout_drop_cmd fuel cid H : Rhout H (drop_cmd fuel cid H).
Proof. apply (R_drop_cmd (fc_drop Rhout_closed)). Qed.

(* C02 on the runtime model: waking touches no channel; a resolution goes into the request's own channel only *)
Lemma wake_chans fuel w H : chans (wake fuel w H) = chans H.
Proof.
  apply (R_wake (fun H H' => chans H' = chans H)); try (intros; reflexivity). intros a b c E1 E2. exact (eq_trans E2 E1).
Qed.
Lemma gch_wake fuel w H c : gch c (wake fuel w H) = gch c H.
Proof. unfold gch. rewrite wake_chans. reflexivity. Qed.
Lemma wake_cell_chan ch H c : c <> ch -> gch c (wake_cell ch H) = gch c H.
Proof.
  intros Hne. unfold wake_cell. destruct (ch_wk (gch ch H)); [|reflexivity].
  rewrite gch_wake. apply gch_uch_other. auto.
Qed.
Lemma wake_cell_buf ch H c : ch_buf (gch c (wake_cell ch H)) = ch_buf (gch c H).
Proof.
  unfold wake_cell. destruct (ch_wk (gch ch H)); [|reflexivity].
  rewrite gch_wake. apply (gch_uch_pres (fun y => ch_buf y = ch_buf (gch c H))); reflexivity.
Qed.
(* Sending v on channel ch: every other channel keeps its buffer; ch's buffer gains exactly v at its end
   when the receiver is alive and is unchanged when it is gone *)
Theorem chan_send_routes ch v H c :
  ch_buf (gch c (snd (chan_send ch v H))) =
  if Nat.eqb c ch then (if ch_rx (gch ch H) then ch_buf (gch ch H) ++ [v] else ch_buf (gch ch H)) else ch_buf (gch c H).
Proof.
  unfold chan_send. destruct (ch_rx (gch ch H)) eqn:Erx; cbn [snd].
  - rewrite wake_cell_buf. destruct (Nat.eqb_spec c ch) as [->|Hne].
    + rewrite gch_uch_same. reflexivity.
    + rewrite gch_uch_other by auto. reflexivity.
  - destruct (Nat.eqb_spec c ch) as [->|Hne]; reflexivity.
Qed.
Theorem chan_drop_tx_keeps_buffers ch H c : ch_buf (gch c (chan_drop_tx ch H)) = ch_buf (gch c H).
Proof.
  unfold chan_drop_tx. destruct (ch_tx (gch ch H)); [|reflexivity].
  rewrite wake_cell_buf. apply (gch_uch_pres (fun y => ch_buf y = ch_buf (gch c H))); reflexivity.
Qed.

(* The hosting executor's ready queue (xready) is written by TaskWaker::wake_by_ref only.  No step of the
   runtime removes an entry: whatever else happens during a poll, a wake-up that reached the outermost host
   stays queued until the host itself takes it. *)
Definition Rxready (H H' : heap) : Prop := exists l, xready H' = xready H ++ l.
Lemma Rxready_refl H : Rxready H H. Proof. apply grows_refl. Qed.
Lemma Rxready_trans a b c : Rxready a b -> Rxready b c -> Rxready a c. Proof. apply grows_trans. Qed.
Lemma Rxready_same H H' : xready H' = xready H -> Rxready H H'.
Proof. intros E. unfold Rxready. rewrite E. apply grows_refl. Qed.
Lemma Rxready_closed : frame_closed (fun _ => True) (fun _ => True) Rxready.
Proof.
  apply good_frame_closed;
    first [ exact Rxready_refl | exact Rxready_trans | intros q H; exists [q]; reflexivity | intros; apply Rxready_same; reflexivity ].
Qed.
Definition Rxready_drop := fc_drop Rxready_closed.
Definition frame_xready := closed_spec Rxready_closed.
