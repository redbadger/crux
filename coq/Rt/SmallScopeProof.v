(* Kernel-checked evaluation of the small-scope refinement (Rt/SmallScope.v), and its reading as a statement
   about every command and schedule of the scope. *)
From Coq Require Import List Arith Bool NArith Lia.
From Crux Require Import Rt.Lang Rt.Rt Rt.Host Rt.Ref Rt.Check Rt.SmallScope.
Import ListNotations.

(* [dstep FUEL0] builds [funs FUEL0], two thousand records deep, anew at each of the three inspections; under call
   by value that is nine tenths of what evaluating the scope costs.  No other action uses the fuel. *)
Definition dstepF (F : rtfuns) (top : nat) (a : action) (st : dstate) : option (obs * dstate) :=
  match a with
  | AEffects => match rsettle F top (d_H st) with None => None | Some H1 =>
      let es := c_eff (gcmd top H1) in
      Some (OEffects (map oeff_of es),
            mkD (d_reqs st ++ map (fun e => mkRq e false) es) (ucmd top (set_eff []) H1)) end
  | AEvents => match rsettle F top (d_H st) with None => None | Some H1 =>
      Some (OEvents (c_evs (gcmd top H1)), mkD (d_reqs st) (ucmd top (set_evs []) H1)) end
  | AIsDone => match rsettle F top (d_H st) with None => None | Some H1 =>
      let cm := gcmd top H1 in
      let d := match c_eff cm, c_evs cm with [], [] => Nat.eqb (c_len cm) 0 | _, _ => false end in
      Some (ODone d (c_len cm), mkD (d_reqs st) H1) end
  | _ => dstep 0 top a st
  end.
Lemma dstepF_funs fuel top a st : dstepF (funs fuel) top a st = dstep fuel top a st.
Proof. destruct a; reflexivity. Qed.

(* The schedules of one command are the paths of a tree: [inspect] at the root, one input followed by [inspect]
   along every edge, to depth two.  The two hosts are run side by side along that tree, every common prefix once:
   from scratch for each schedule takes three times as many steps. *)
Definition pair_state := (dstate * rstate)%type.

Fixpoint agree (F : rtfuns) (top : nat) (acts : list action) (s : pair_state) : option pair_state :=
  match acts with
  | [] => Some s
  | a :: rest =>
    match dstepF F top a (fst s), rstep RF a (snd s) with
    | Some (o, d), Some (q, r) => if robs_obs_eqb q o then agree F top rest (d, r) else None
    | _, _ => None
    end
  end.

Fixpoint tree_ok (F : rtfuns) (top : nat) (ins : list action) (depth : nat) (s : pair_state) : bool :=
  match depth with
  | 0 => true
  | S depth' =>
    forallb (fun a => match agree F top (a :: inspect) s with Some s' => tree_ok F top ins depth' s' | None => false end) ins
  end.

Definition cmd_ok (F : rtfuns) (c : cmd) : bool :=
  cmd_abort_free c && cmd_flat_ok c &&
  let cc := compile c in
  let (top, H) := new_cmd (cx_name cc) None [] (cx_main cc) (cx_extra cc) H0 in
  match agree F top inspect (mkD [] H, mkRSt (start [] c) 0 [] [] []) with
  | Some s => tree_ok F top (inputs_of c) 2 s
  | None => false
  end.

Definition traces_agree (top : nat) (s : pair_state) (acts : list action) : Prop :=
  exists t r, drun FUEL0 top acts (fst s) = Some t /\ rrun RF acts (snd s) = Some r /\ list_eqb2 robs_obs_eqb r t = true.

Lemma agree_app top p q : forall s s', agree (funs FUEL0) top p s = Some s' -> traces_agree top s' q -> traces_agree top s (p ++ q).
Proof.
  induction p as [|a p IH]; intros s s' E Q; cbn [agree app] in *.
  - inversion E; subst; exact Q.
  - rewrite dstepF_funs in E. destruct (dstep FUEL0 top a (fst s)) as [[o d]|] eqn:D; [|discriminate].
    destruct (rstep RF a (snd s)) as [[x r]|] eqn:R; [|discriminate].
    destruct (robs_obs_eqb x o) eqn:X; [|discriminate].
    destruct (IH _ _ E Q) as (t & u & Dt & Ru & Eq). exists (o :: t), (x :: u).
    cbn [drun rrun list_eqb2]. cbn [fst snd] in Dt, Ru. rewrite D, R, Dt, Ru, X, Eq. auto.
Qed.

Definition path (l : list action) : list action := flat_map (fun a => a :: inspect) l.

Lemma tree_ok_sound top ins : forall depth s, tree_ok (funs FUEL0) top ins depth s = true ->
  forall l, length l <= depth -> incl l ins -> traces_agree top s (path l).
Proof.
  intros depth s T l. revert depth s T. induction l as [|a l IH]; intros depth s T L I.
  - exists [], []. auto.
  - destruct depth as [|depth]; [cbn in L; lia|]. cbn [tree_ok] in T. rewrite forallb_forall in T.
    specialize (T a (I a (or_introl eq_refl))). destruct (agree _ top (a :: inspect) s) as [s'|] eqn:A; [|discriminate].
    apply (agree_app _ _ _ _ _ A), (IH depth); [exact T | cbn in L; lia | intros x Ix; apply I; right; exact Ix].
Qed.

Lemma scheds_paths c acts : In acts (scheds c) ->
  exists l, length l <= 2 /\ incl l (inputs_of c) /\ acts = inspect ++ path l.
Proof.
  unfold scheds. cbn [app]. intros [<-|Ia]; [exists []; cbn; auto using incl_nil_l|].
  apply in_app_or in Ia as [Ia|Ia].
  - apply in_map_iff in Ia as (a & <- & Ia). exists [a]. cbn [length]. split; [lia|].
    split; [intros x [<-|[]]; exact Ia | reflexivity].
  - apply in_flat_map in Ia as (a & Ia & Ib). apply in_map_iff in Ib as (b & <- & Ib). exists [a; b]. cbn [length].
    split; [lia|]. split; [intros x [<-|[<-|[]]]; assumption | reflexivity].
Qed.

(* the shell inputs of the scope are resolutions and drops only *)
Lemma paths_abort_free c l : incl l (inputs_of c) -> sched_abort_free (inspect ++ path l) = true.
Proof.
  intros I. unfold sched_abort_free. rewrite forallb_app. cbn [inspect forallb andb].
  induction l as [|a l IH]; [reflexivity|]. cbn [path flat_map inspect app forallb].
  fold inspect. fold (path l). rewrite IH by (intros x Ix; apply I; right; exact Ix).
  assert (Ia : In a (inputs_of c)) by (apply I; left; reflexivity).
  apply in_flat_map in Ia as (tg & _ & [<-|[<-|[]]]); reflexivity.
Qed.

Lemma cmd_ok_sound c : cmd_ok (funs FUEL0) c = true -> forall acts, In acts (scheds c) ->
  exists t r, direct FUEL0 c acts = Some t /\ ref_direct RF c acts = Some r /\ list_eqb2 robs_obs_eqb r t = true /\
              in_fragment (false, false, c, [], acts, t) = true.
Proof.
  unfold cmd_ok, direct, ref_direct, in_fragment. cbn [negb andb]. intros E acts Ia.
  destruct (scheds_paths c acts Ia) as (l & L & I & ->). rewrite (paths_abort_free c l I), andb_true_r.
  apply andb_prop in E as [-> E]. destruct (new_cmd _ _ _ _ _ _) as [top H].
  destruct (agree _ top inspect _) as [s|] eqn:A; [|discriminate].
  destruct (agree_app _ _ _ _ _ A (tree_ok_sound _ _ _ _ E l L I)) as (t & r & D & R & Eq). exists t, r. auto.
Qed.

(* the one evaluation: 1505 trees; [funs FUEL0], being an argument, is evaluated once *)
Theorem small_cmds_ok : forall c, In c small_cmds -> cmd_ok (funs FUEL0) c = true.
Proof. apply forallb_forall. vm_compute. reflexivity. Qed.

Theorem small_scope_refines : small_scope_ok = true.
Proof.
  apply forallb_forall. intros c Ic. apply forallb_forall. intros acts Ia.
  destruct (cmd_ok_sound c (small_cmds_ok c Ic) acts Ia) as (t & r & D & R & E & F).
  unfold refines. rewrite D, R, E. rewrite andb_true_r. exact F.
Qed.
