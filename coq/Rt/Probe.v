(* C01, the probe on the runtime model: a call that starts Command::done() on an idle Core (executor
   queues empty, no event pending, nothing in the request channel) returns no effect, applies exactly
   its own event and leaves the Core idle, whatever else the heap holds.  The command is executed
   symbolically on an ARBITRARY heap H: every intermediate heap is kept in the normal form
   [N H fl cm wk lg] = H with one more task flag fl, one more command cm, more waker generations and log
   notes - everything else of H (channels, other commands, ready queue, request channel) untouched. *)
From Coq Require Import List Arith Bool Lia.
From Crux Require Import Rt.Lang Rt.Rt Rt.Host Rt.Tables Rt.HostProps Rt.Check Rt.CheckFacts.
Import ListNotations.

Lemma updd_app_len {A} (d : A) f l x : updd d (length l) f (l ++ [x]) = l ++ [f x].
Proof. induction l as [|y l IH]; [reflexivity | exact (f_equal (cons y) IH)]. Qed.

Definition N (H : heap) (fl : tflag) (cm : cmdst) (wk : list bool) (lg : list nat) : heap :=
  mkH (chans H) (tfl H ++ [fl]) (cmds H ++ [cm]) (woken H ++ wk) (xready H) (aborted H) (lg ++ log H) (hout H).

Definition fl_new := mkTF false false true [].
Definition fl_done := mkTF true false false [].

Section Norm.
  Variable H : heap.
  Let cid := length (cmds H).
  Let u0 := length (tfl H).
  Lemma gcmd_N fl cm wk lg : gcmd cid (N H fl cm wk lg) = cm.
  Proof. unfold gcmd, getd, N; simpl. apply nth_middle. Qed.
  Lemma ucmd_N f fl cm wk lg : ucmd cid f (N H fl cm wk lg) = N H fl (f cm) wk lg.
  Proof. unfold ucmd, N; simpl. unfold cid. rewrite updd_app_len. reflexivity. Qed.
  Lemma gtf_N fl cm wk lg : gtf u0 (N H fl cm wk lg) = fl.
  Proof. unfold gtf, getd, N; simpl. apply nth_middle. Qed.
  Lemma utf_N f fl cm wk lg : utf u0 f (N H fl cm wk lg) = N H (f fl) cm wk lg.
  Proof. unfold utf, N; simpl. unfold u0. rewrite updd_app_len. reflexivity. Qed.
  Lemma gen_N fl cm wk lg :
    mkH (chans (N H fl cm wk lg)) (tfl (N H fl cm wk lg)) (cmds (N H fl cm wk lg)) (woken (N H fl cm wk lg) ++ [false])
        (xready (N H fl cm wk lg)) (aborted (N H fl cm wk lg)) (log (N H fl cm wk lg)) (hout (N H fl cm wk lg))
    = N H fl cm (wk ++ [false]) lg.
  Proof. unfold N; simpl. rewrite <- app_assoc. reflexivity. Qed.
  Lemma was_aborted_N fl cm wk lg : c_names cm = [] -> was_aborted cid (N H fl cm wk lg) = false.
  Proof. intros E. unfold was_aborted. rewrite gcmd_N, E. reflexivity. Qed.
  Lemma new_cmd_N en m : new_cmd [] None en m [] H =
    (cid, N H fl_new (mkCmd true [0] [] [Occ (mkT u0 (fs_of en m))] 1 1 [] [] None [] u0 cid) [] []).
  Proof. unfold new_cmd, new_tflag, N; simpl. rewrite app_nil_r. reflexivity. Qed.

  Lemma settle_N F fl cm wk lg : c_names cm = [] -> rsettle (step_funs F) cid (N H fl cm wk lg) = rloop F cid (N H fl cm wk lg).
  Proof. intros En. rewrite rsettle_step, was_aborted_N by exact En. reflexivity. Qed.
  Lemma loop_N F fl cm wk lg : c_spawnq cm = [] ->
    rloop (step_funs F) cid (N H fl cm wk lg) =
    match c_ready cm with
    | [] => Some (N H fl cm wk lg)
    | _ :: _ => match rdrain F cid (N H fl cm wk lg) with None => None | Some H2 => rloop F cid H2 end
    end.
  Proof.
    intros Eq. cbn [step_funs rloop]. unfold loop_body. rewrite gcmd_N, Eq. cbn [fold_left]. rewrite ucmd_N, gcmd_N.
    destruct cm; cbn in Eq; subst; reflexivity.
  Qed.

  Lemma run_task_ret F s en fl cm wk lg :
    slab_get s cm = Some (mkT u0 (fs_of en TRet)) -> tf_abort fl = false -> c_names cm = [] ->
    rrun_task (step_funs (step_funs F)) cid s (N H fl cm wk lg)
    = Some (Completed, N H fl (slab_set s (mkT u0 (fs_of [] TRet)) cm) (wk ++ [false]) lg).
  Proof.
    intros Es Ea En. cbn [step_funs rrun_task]. unfold run_task_body. rewrite gcmd_N, Es. cbn [t_uid t_fs].
    rewrite gtf_N, Ea, was_aborted_N, andb_false_r by exact En. cbn [orb]. rewrite gen_N.
    cbn [step_funs rpoll poll_body fs_of f_leaf f_stack]. rewrite ucmd_N. reflexivity.
  Qed.
  Lemma finish_ret s en t fl cm wk lg : tf_joinw fl = [] ->
    finish_task cid s (mkT u0 (fs_of en t)) (N H fl cm wk lg) = N H (mkTF true (tf_abort fl) false []) (slab_remove s cm) wk lg.
  Proof.
    intros Ej. unfold finish_task. cbn [t_uid t_fs]. rewrite ucmd_N, gtf_N, Ej, utf_N. cbn [fold_left].
    unfold dfuel, kill_flag. rewrite drop_fs_S. cbn [fs_of f_leaf f_stack fold_left]. rewrite utf_N. reflexivity.
  Qed.

  Definition cm_ret s cm := slab_remove s (slab_set s (mkT u0 (fs_of [] TRet)) (set_ready [] cm)).
  Section Ret.
    Variables (s : nat) (en : env) (fl : tflag) (cm : cmdst).
    Hypothesis Ea : tf_abort fl = false.
    Hypothesis Ej : tf_joinw fl = [].
    Hypothesis En : c_names cm = [].
    Hypothesis Eq : c_spawnq cm = [].
    Hypothesis Er : c_ready cm = [s].
    Hypothesis Es : slab_get s cm = Some (mkT u0 (fs_of en TRet)).

    Lemma drain_ret F wk lg :
      rdrain (step_funs (step_funs (step_funs F))) cid (N H fl cm wk lg) = Some (N H fl_done (cm_ret s cm) (wk ++ [false]) lg).
    Proof.
      cbn [step_funs rdrain]. unfold drain_body at 1. rewrite gcmd_N, Er, ucmd_N, (run_task_ret F s en) by assumption. cbv beta iota.
      rewrite gcmd_N, slab_get_set, finish_ret, Ea by exact Ej. cbn [step_funs rdrain]. unfold drain_body. rewrite gcmd_N. reflexivity.
    Qed.
    Lemma settle_ret F wk lg :
      rsettle (step_funs (step_funs (step_funs (step_funs (step_funs F))))) cid (N H fl cm wk lg)
      = Some (N H fl_done (cm_ret s cm) (wk ++ [false]) lg).
    Proof. rewrite settle_N, loop_N, Er, drain_ret, loop_N by assumption. reflexivity. Qed.
  End Ret.
End Norm.

(* Command::done() is one task, `async {}`: its record when created, when the task has run under a host that
   registered w, and when it has been dropped *)
Definition cm_new (H : heap) (en : env) :=
  mkCmd true [0] [] [Occ (mkT (length (tfl H)) (fs_of en TRet))] 1 1 [] [] None [] (length (tfl H)) (length (cmds H)).
Definition cm_done (H : heap) (w : waker) :=
  mkCmd true [] [] [Vac 1] 0 0 [] [] (Some w) [] (length (tfl H)) (length (cmds H)).
Definition cm_gone (H : heap) (w : waker) := mkCmd false [] [] [] 0 0 [] [] (Some w) [] (length (tfl H)) (length (cmds H)).

Lemma new_done_N en H : new_cmd [] None en TRet [] H = (length (cmds H), N H fl_new (cm_new H en) [] []).
Proof. apply new_cmd_N. Qed.
(* the task runs and finishes, nothing is woken, nothing reaches any queue of H; is_done() finds no output and no
   task: Ready(None) *)
Lemma poll_next_done f w en H :
  poll_next (S (S (S (S (S (S f)))))) (length (cmds H)) w (N H fl_new (cm_new H en) [] [])
  = Some (PNDone, N H fl_done (cm_done H w) [false] []).
Proof.
  unfold poll_next. cbn [funs step_funs rpoll_next]. unfold poll_next_body.
  rewrite ucmd_N, (settle_ret H 0 en), settle_N, loop_N, !gcmd_N by reflexivity.
  change (cm_ret _ _ _) with (cm_done H w). cbn [cm_done c_evs c_eff c_ready]. rewrite !gcmd_N. reflexivity.
Qed.

(* dropping it afterwards touches nothing else either *)
Lemma drop_done H w : drop_cmd (dfuel (N H fl_done (cm_done H w) [false] [])) (length (cmds H)) (N H fl_done (cm_done H w) [false] [])
  = N H fl_done (cm_gone H w) [false] [].
Proof. unfold dfuel. rewrite drop_cmd_S, gcmd_N, ucmd_N. reflexivity. Qed.

Lemma xget_xinsert cid s q sl : xinsert cid s = (q, sl) -> xget q sl = Some cid.
Proof.
  unfold xinsert, xget. destruct (Nat.eqb (snd s) (length (fst s))) eqn:E; intros X; inversion X; subst; cbn [fst].
  - apply Nat.eqb_eq in E. rewrite E. unfold getd. rewrite nth_middle. reflexivity.
  - rewrite getd_updd_same. reflexivity.
Qed.

Section Core.
  Variable F : nat.
  (* six levels of the runtime's recursion are entered: poll_next, and below it the five of settle_ret (settle, loop,
     drain, run_task, poll) *)
  Notation FUEL := (S (S (S (S (S (S F)))))).
  Lemma xrun_done g q H sp sl ev out lg rq en :
    xget q sl = Some (length (cmds H)) ->
    xrun_task FUEL (S g) q (mkC (N H fl_new (cm_new H en) [] []) sp sl ev out lg rq)
    = Some (mkC (N H fl_done (cm_gone H (WExec q)) [false] []) sp (xremove q sl) ev out lg rq).
  Proof.
    intros X. cbn [xrun_task k_slab k_H]. rewrite X. rewrite poll_next_done.
    cbn [k_spawn k_slab k_events k_out k_log k_reqs]. rewrite drop_done. reflexivity.
  Qed.

  Definition KD (H : heap) (q : nat) sl ev out lg rq := mkC (N H fl_done (cm_gone H (WExec q)) [false] []) [] sl ev out lg rq.

  Lemma xspawn_done g H slab q sl ev out lg rq en :
    xinsert (length (cmds H)) slab = (q, sl) ->
    xspawn_all FUEL (S (S g)) (mkC (N H fl_new (cm_new H en) [] []) [length (cmds H)] slab ev out lg rq)
    = Some (KD H q (xremove q sl) ev out lg rq).
  Proof.
    intros X. cbn [xspawn_all k_spawn k_slab k_H k_events k_out k_log k_reqs]. rewrite X.
    rewrite (xrun_done _ q H [] sl ev out lg rq en (xget_xinsert _ _ _ _ X)). reflexivity.
  Qed.
  Lemma xready_done g H q sl ev out lg rq : xready H = [] ->
    xready_all FUEL (S g) (KD H q sl ev out lg rq) = Some (KD H q sl ev out lg rq).
  Proof. intros R. cbn [xready_all KD k_H]. unfold N; cbn [xready]. rewrite R. reflexivity. Qed.
  Lemma run_all_done g H slab q sl ev out lg rq en :
    xready H = [] -> xinsert (length (cmds H)) slab = (q, sl) ->
    run_all FUEL (S (S g)) (mkC (N H fl_new (cm_new H en) [] []) [length (cmds H)] slab ev out lg rq)
    = Some (KD H q (xremove q sl) ev out lg rq).
  Proof.
    intros R X. cbn [run_all k_spawn].
    rewrite (xspawn_done _ H slab q sl ev out lg rq en X).
    rewrite (xready_done _ H q _ ev out lg rq R).
    cbn [KD k_spawn k_H]. unfold N; cbn [xready]. rewrite R. reflexivity.
  Qed.

  (* the call: an event whose handler returns Command::done(), on an idle Core *)
  Theorem probe_silent_model hs tg v k :
    lookup tg hs = c_done ->
    k_spawn k = [] -> xready (k_H k) = [] -> k_events k = [] -> hout (k_H k) = [] ->
    exists k', cstep FUEL hs (AEvent tg v) k = Some (OCall 0 [] (k_log k ++ [mkEv tg v []]), k') /\
               k_spawn k' = [] /\ xready (k_H k') = [] /\ k_events k' = [] /\ hout (k_H k') = [] /\
               k_log k' = k_log k ++ [mkEv tg v []] /\ k_reqs k' = k_reqs k.
  Proof.
    intros Hd Hs Hr He Ho. cbn [cstep]. rewrite Hd. unfold spawn_cmd. cbn [compile c_done cx_name cx_main cx_extra k_H].
    rewrite new_done_N. cbn [k_spawn k_slab k_events k_out k_log k_reqs]. rewrite Hs. cbn [app].
    destruct (xinsert (length (cmds (k_H k))) (k_slab k)) as [q sl] eqn:X.
    cbn [process].
    rewrite (run_all_done _ (k_H k) (k_slab k) q sl _ _ _ _ [v] Hr X).
    cbn [KD k_events]. rewrite He.
    unfold take_out, KD. cbn [k_H k_spawn k_slab k_events k_log k_reqs]. unfold N at 1 2. cbn [hout]. rewrite Ho. cbn [map app].
    eexists. split; [reflexivity|]. cbn [k_H k_spawn k_events k_log k_reqs]. unfold set_hout, N; cbn [xready hout].
    repeat split; try reflexivity; try assumption. rewrite Ho. cbn [map]. apply app_nil_r.
  Qed.
End Core.

(* what the trace predicate remembers between two shell actions ([prev], the log after an accepted call) is matched
   by an idle core with that log *)
Definition idle4 (k : core) : Prop := k_spawn k = [] /\ xready (k_H k) = [] /\ k_events k = [] /\ hout (k_H k) = [].
Definition pinv (prev : option (list event)) (k : core) : Prop :=
  match prev with Some plog => idle4 k /\ k_log k = plog | None => True end.

Section Trace.
  Variable F : nat.
  Notation FUEL := (S (S (S (S (S (S F)))))).
  Variable hs : handlers.
  Hypothesis Hprobe : lookup 99 hs = c_done.

  Lemma cstep_pinv a k o k' prev : cstep FUEL hs a k = Some (o, k') -> pinv prev k ->
    no_panic [o] = true /\
    exists prev', pinv prev' k' /\ forall acts t, C01_probes (a :: acts) (o :: t) prev = C01_probes acts t prev'.
  Proof.
    intros E P. destruct (cstep_obs _ _ _ _ _ _ E) as [(k1 & _ & E1) | (_ & L & O)].
    - destruct (if is_probe a then prev else None) as [plog|] eqn:IP.
      + (* a probe put directly after a call *)
        destruct (is_probe a) eqn:Ia; [|discriminate]. apply is_probe_true in Ia. subst a prev. destruct P as ((S0 & R0 & E0 & O0) & L0).
        destruct (probe_silent_model F hs 99 0 k Hprobe S0 R0 E0 O0) as (k2 & EK & S2 & R2 & E2 & O2 & L2 & Q2).
        rewrite EK in E. inversion E; subst.
        split; [reflexivity | exists (Some (k_log k ++ [mkEv 99 0 []])); split; [split; [repeat split; assumption | exact L2]|]].
        intros acts t. rewrite C01_probes_call. cbn [is_probe Nat.eqb andb]. rewrite (list_eqb_refl _ event_eqb_refl). reflexivity.
      + (* any other call *)
        apply call_returns in E1. destruct E1 as (effs & -> & _ & Q).
        split; [reflexivity | exists (Some (k_log k')); split; [exact (conj Q eq_refl)|]]. intros acts t. rewrite C01_probes_call, IP. reflexivity.
    - (* nothing was called *)
      destruct o as [| | |code|[|c] effs lg|n| |]; try contradiction; (split; [reflexivity|]).
      (* a drop or an abort may leave work: [prev] is forgotten *)
      1-3, 7: exists None; split; [exact I | reflexivity].
      (* a hook leaves the core as it is *)
      1, 3: subst k'; exists prev; split; [exact P | reflexivity].
      (* a rejected resolution changes nothing that [pinv] reads *)
      exists prev. split; [|reflexivity]. destruct O as (_ & S1 & E1 & R1 & O1). destruct prev as [plog|]; [|exact I].
      destruct P as (I4 & L0). unfold pinv, idle4. rewrite S1, E1, R1, O1, L. exact (conj I4 L0).
  Qed.

  Lemma crun_probes : forall acts k os prev,
    crun FUEL hs acts k = Some os -> pinv prev k -> C01_probes acts os prev = true /\ no_panic os = true.
  Proof.
    induction acts as [|a acts IH]; intros k os prev E P; cbn [crun] in E.
    - inversion E; subst. split; reflexivity.
    - destruct (cstep FUEL hs a k) as [[o k1]|] eqn:EC; [|discriminate].
      destruct (crun FUEL hs acts k1) as [os1|] eqn:ER; [|discriminate]. inversion E; subst.
      destruct (cstep_pinv a k o k1 prev EC P) as (NP & prev' & P' & Eq).
      destruct (IH k1 os1 prev' ER P') as [A B]. rewrite Eq. split; [exact A|].
      unfold no_panic in *. cbn [forallb] in *. rewrite B. exact NP.
  Qed.
End Trace.
