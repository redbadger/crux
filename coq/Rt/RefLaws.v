(* Trace laws of the reference semantics (C04).  A wrapper is transparent when related residual commands answer
   run / deliver / drop alike and agree on done after a run; then every schedule of inspections, resolutions and
   drops gives both commands exactly the same trace (result codes and done flags included).  The relation may be
   a wrapper function (map with the identity) or not uniform: then c done turns into the residual of done once c
   has finished; the done parts of an and / all run once and are then empty bags.
   Fuel: the inner loops [run_bag] and [run_strand] have a fuel of their own, [SF] (Ref.v), which is part of [run]
   itself; the fuel argument of [run] bounds only how deep it descends into a residual command, so a wrapper
   costs one unit per level.  Where the two sides become the same residual command, run with different fuel, only
   one direction holds ([run_mono]): the [fwd_] lemmas are for that case. *)
From Coq Require Import List Arith Bool Lia.
From Crux Require Import Rt.Lang Rt.Rt Rt.Ref Rt.RefFacts Rt.RefProps Rt.RefCoreProps Rt.RefQuiesce.
Import ListNotations.

Lemma run_mono : forall f en c n r, run f en c n = Some r -> run (S f) en c n = Some r.
Proof.
  induction f as [|f IH]; intros en c n r E; [discriminate|].
  destruct c as [b|a b|l|k a|k a].
  - exact E.
  - rewrite run_seq_eq in *. destruct (run f en a n) as [[[a1 n1] o1]|] eqn:EA; [|discriminate].
    rewrite (IH _ _ _ _ EA). destruct (rdone a1); [|exact E].
    destruct (run f en (start en b) n1) as [[[b2 n2] o2]|] eqn:EB; [|discriminate].
    rewrite (IH _ _ _ _ EB). exact E.
  - rewrite run_par_eq in *. destruct (run_list f en l n) as [[[l1 n1] o1]|] eqn:EG; [|discriminate].
    enough (G : run_list (S f) en l n = Some (l1, n1, o1)) by (rewrite G; exact E).
    revert EG. refine (run_list_ind f en (fun x n x' n' o => run (S f) en x n = Some (x', n', o))
                                         (fun l n l' n' o => run_list (S f) en l n = Some (l', n', o)) _ _ _ l n l1 n1 o1).
    + intros x m x' m' p. apply IH.
    + reflexivity.
    + intros x l0 m x' m1 p1 l' m2 p2 HP HQ. cbn [run_list]. rewrite HP, HQ. reflexivity.
  - rewrite run_mapeff_eq in *. destruct (run f en a n) as [[[a1 n1] o1]|] eqn:EA; [|discriminate]. rewrite (IH _ _ _ _ EA). exact E.
  - rewrite run_mapev_eq in *. destruct (run f en a n) as [[[a1 n1] o1]|] eqn:EA; [|discriminate]. rewrite (IH _ _ _ _ EA). exact E.
Qed.

Definition with_c (c : rc) (s : rstate) : rstate := mkRSt c (r_n s) (r_effs s) (r_evs s) (r_reqs s).

Section Fwd.
  Variables fl fr : nat.
  Variable R : rc -> rc -> Prop.
  Hypothesis R_run : forall a b n b' n' o, R a b -> run fr [] b n = Some (b', n', o) ->
    exists a' o', run fl [] a n = Some (a', n', o') /\ R a' b' /\ ro_effs o' = ro_effs o /\ ro_evs o' = ro_evs o /\ rdone a' = rdone b'.
  Hypothesis R_deliver : forall rid v a b, R a b ->
    fst (deliver rid v a) = fst (deliver rid v b) /\ R (snd (deliver rid v a)) (snd (deliver rid v b)).
  Hypothesis R_drop : forall rid a b, R a b -> R (dropreq rid a) (dropreq rid b).

  Lemma fwd_advance c s s' : R c (r_c s) -> radvance fr s = Some s' ->
    exists c', radvance fl (with_c c s) = Some (with_c c' s') /\ R c' (r_c s') /\ rdone c' = rdone (r_c s').
  Proof.
    unfold radvance. cbn [with_c r_c r_n r_effs r_evs r_reqs]. intros Rc E.
    destruct (run fr [] (r_c s) (r_n s)) as [[[b' n'] o]|] eqn:EB; [|discriminate]. inversion E; subst s'; clear E.
    destruct (R_run _ _ _ _ _ _ Rc EB) as (a' & o' & -> & R' & -> & -> & D). exists a'. auto.
  Qed.

  Lemma fwd_step a c s o s' : not_spawn a = true -> R c (r_c s) -> rstep fr a s = Some (o, s') ->
    exists c', rstep fl a (with_c c s) = Some (o, with_c c' s') /\ R c' (r_c s').
  Proof.
    intros NS Rc E.
    assert (Same : forall x, Some (x, s) = Some (o, s') -> exists c', Some (x, with_c c s) = Some (o, with_c c' s') /\ R c' (r_c s'))
      by (intros x Es; inversion Es; subst; exists c; auto).
    destruct a; try discriminate NS; unfold rstep in *; fold (with_c c s); auto.
    1-3: destruct (radvance fr s) as [s1|] eqn:A; [|discriminate]; inversion E; subst o s'; clear E;
         destruct (fwd_advance _ _ _ Rc A) as (c' & -> & Rc' & D); exists c'; cbn [with_c r_c r_n r_effs r_evs r_reqs];
         rewrite ?D; auto.
    - cbn [with_c r_c r_n r_effs r_evs r_reqs]. destruct (find_rr tg v occ 0 (r_reqs s)) as [i|]; [|auto].
      set (r := nth i (r_reqs s) _) in *. destruct (R_deliver (re_rid (rr_eff r)) out _ _ Rc) as (Dt & Dc).
      destruct (deliver _ out c) as [t1 c1], (deliver _ out (r_c s)) as [t2 c2]. cbn [fst snd] in Dt, Dc. subst t2.
      destruct (rr_state r) as [|[|[|k]]]; [auto| |destruct t1; [|auto]|auto]; inversion E; subst o s'; exists c1; auto.
    - cbn [with_c r_c r_n r_effs r_evs r_reqs]. destruct (find_rr tg v occ 0 (r_reqs s)) as [i|]; [|auto].
      set (r := nth i (r_reqs s) _) in *. pose proof (R_drop (re_rid (rr_eff r)) _ _ Rc) as Dc.
      destruct (rr_state r) as [|[|[|[|k]]]]; [exists c| | |auto|]; inversion E; subst o s'; auto;
        exists (dropreq (re_rid (rr_eff r)) c); auto.
  Qed.

  Lemma fwd_run : forall acts c s t, no_spawn acts = true -> R c (r_c s) -> rrun fr acts s = Some t -> rrun fl acts (with_c c s) = Some t.
  Proof.
    induction acts as [|a acts IH]; intros c s t NS Rc E; cbn [rrun] in *; [exact E|].
    apply andb_prop in NS as [NS1 NS2].
    destruct (rstep fr a s) as [[o s']|] eqn:E1; [|discriminate].
    destruct (fwd_step a c s o s' NS1 Rc E1) as (c' & -> & Rc').
    destruct (rrun fr acts s') as [os|] eqn:E2; [|discriminate].
    rewrite (IH c' s' os NS2 Rc' E2). exact E.
  Qed.
End Fwd.

Section Sim.
  Variables fl fr : nat.            (* fuel of the left (wrapped) and of the right (bare) run *)
  Variable R : rc -> rc -> Prop.
  Hypothesis R_run : forall a b n, R a b ->
    match run fl [] a n, run fr [] b n with
    | Some (a', n1, o1), Some (b', n2, o2) =>
        R a' b' /\ n1 = n2 /\ ro_effs o1 = ro_effs o2 /\ ro_evs o1 = ro_evs o2 /\ rdone a' = rdone b'
    | None, None => True
    | _, _ => False
    end.
  Hypothesis R_deliver : forall rid v a b, R a b ->
    fst (deliver rid v a) = fst (deliver rid v b) /\ R (snd (deliver rid v a)) (snd (deliver rid v b)).
  Hypothesis R_drop : forall rid a b, R a b -> R (dropreq rid a) (dropreq rid b).

  Definition simR (s1 s2 : rstate) : Prop :=
    R (r_c s1) (r_c s2) /\ r_n s1 = r_n s2 /\ r_effs s1 = r_effs s2 /\ r_evs s1 = r_evs s2 /\ r_reqs s1 = r_reqs s2.

  Lemma simR_with s1 s2 : simR s1 s2 -> s1 = with_c (r_c s1) s2 /\ s2 = with_c (r_c s2) s1.
  Proof. destruct s1, s2. unfold simR. cbn. intros (_ & -> & -> & -> & ->). auto. Qed.

  (* a failing run on one side fails on the other, so the two one-directional simulations give equality *)
  Theorem simR_trace : forall acts s1 s2, no_spawn acts = true -> simR s1 s2 -> rrun fl acts s1 = rrun fr acts s2.
  Proof.
    intros acts s1 s2 NS S0. pose proof S0 as (Rc & _). destruct (simR_with _ _ S0) as [E1 E2].
    assert (F1 : forall t, rrun fr acts s2 = Some t -> rrun fl acts s1 = Some t).
    { rewrite E1. intros t. apply (fwd_run fl fr R); try assumption.
      intros a b n b' n' o Rab EB. specialize (R_run a b n Rab). rewrite EB in R_run.
      destruct (run fl [] a n) as [[[a' n1] o1]|]; [|contradiction].
      destruct R_run as (R' & -> & Ee & Ev & D). exists a', o1. auto. }
    assert (F2 : forall t, rrun fl acts s1 = Some t -> rrun fr acts s2 = Some t).
    { rewrite E2. intros t. apply (fwd_run fr fl (fun b a => R a b)); try assumption.
      - intros b a n a' n' o Rab EA. specialize (R_run a b n Rab). rewrite EA in R_run.
        destruct (run fr [] b n) as [[[b' n2] o2]|]; [|contradiction].
        destruct R_run as (R' & -> & Ee & Ev & D). exists b', o2. auto.
      - intros rid v b a Rab. destruct (R_deliver rid v a b Rab). auto.
      - intros rid b a. apply R_drop. }
    destruct (rrun fr acts s2) as [t|]; [apply F1; reflexivity|].
    destruct (rrun fl acts s1) as [t|]; [discriminate (F2 t eq_refl) | reflexivity].
  Qed.
End Sim.

Lemma simR_init (R : rc -> rc -> Prop) a b : R a b -> simR R (mkRSt a 0 [] [] []) (mkRSt b 0 [] [] []).
Proof. intros H. repeat split. exact H. Qed.

Section SimFwd.
  Variables fl fr : nat.
  Variable R : rc -> rc -> Prop.
  Hypothesis R_run : forall a b n b' n' o, R a b -> run fr [] b n = Some (b', n', o) ->
    exists a' o', run fl [] a n = Some (a', n', o') /\ R a' b' /\ ro_effs o' = ro_effs o /\ ro_evs o' = ro_evs o /\ rdone a' = rdone b'.
  Hypothesis R_deliver : forall rid v a b, R a b ->
    fst (deliver rid v a) = fst (deliver rid v b) /\ R (snd (deliver rid v a)) (snd (deliver rid v b)).
  Hypothesis R_drop : forall rid a b, R a b -> R (dropreq rid a) (dropreq rid b).

  Theorem fwd_trace : forall acts s1 s2 t, no_spawn acts = true -> simR R s1 s2 -> rrun fr acts s2 = Some t -> rrun fl acts s1 = Some t.
  Proof.
    intros acts s1 s2 t NS S0. destruct (simR_with R _ _ S0) as [-> _]. destruct S0 as (Rc & _).
    exact (fwd_run fl fr R R_run R_deliver R_drop acts _ s2 t NS Rc).
  Qed.
End SimFwd.

(* map with the identity function, over effects or over events: one unit of fuel more for the level *)
Theorem map_id_trace (M : nat -> rc -> rc) f c acts : M = RMapEff \/ M = RMapEv -> no_spawn acts = true ->
  rrun (S f) acts (mkRSt (M 0 (start [] c)) 0 [] [] []) = ref_direct f c acts.
Proof.
  intros HM NS. apply (simR_trace (S f) f (fun a b => a = M 0 b)); [| | |exact NS|apply simR_init; reflexivity].
  - intros a b n ->. destruct HM as [->| ->]; cbn [run]; (destruct (run f [] b n) as [[[b' n'] o]|]; [|exact I]); repeat split; reflexivity.
  - intros rid v a b ->. destruct HM as [->| ->]; cbn [deliver]; destruct (deliver rid v b); split; reflexivity.
  - intros rid a b ->. destruct HM as [->| ->]; reflexivity.
Qed.

Definition done_bag0 := RBag (start_bag [] TRet []).     (* not yet run *)
Definition done_bag1 := RBag (mkRB [] 1 [0]).             (* after its only strand has returned *)
Definition is_done_bag (d : rc) : Prop := d = done_bag0 \/ d = done_bag1.

Lemma done_bag_run f n d : is_done_bag d -> run (S f) [] d n = Some (done_bag1, n, ro0).
Proof. intros [->| ->]; reflexivity. Qed.
Lemma done_bag_deliver rid v d : is_done_bag d -> deliver rid v d = (false, d).
Proof. intros [->| ->]; reflexivity. Qed.
Lemma done_bag_drop rid d : is_done_bag d -> dropreq rid d = d.
Proof. intros [->| ->]; reflexivity. Qed.
Lemma done_bag1_is : is_done_bag done_bag1. Proof. right; reflexivity. Qed.
Lemma done_bag0_is : is_done_bag done_bag0. Proof. left; reflexivity. Qed.
Lemma start_done : start [] c_done = done_bag0. Proof. reflexivity. Qed.

(* then c done = c: either c is still being run in front of the done, or c has finished (and stays so) and what
   is left of the sequence is the finished done *)
Definition Rtd (f : nat) (a b : rc) : Prop :=
  a = RSeq b c_done \/
  (rdone b = true /\ a = done_bag1 /\ forall m, run f [] b m = Some (b, m, ro0)).

Lemma Rtd_run f a b n : Rtd f a b ->
  match run (S f) [] a n, run f [] b n with
  | Some (a', n1, o1), Some (b', n2, o2) =>
      Rtd f a' b' /\ n1 = n2 /\ ro_effs o1 = ro_effs o2 /\ ro_evs o1 = ro_evs o2 /\ rdone a' = rdone b'
  | None, None => True
  | _, _ => False
  end.
Proof.
  intros [-> | (D & -> & St)].
  - rewrite run_seq_eq. destruct (run f [] b n) as [[[b' n1] o1]|] eqn:EB; [|exact I].
    destruct (rdone b') eqn:ED; [|repeat split; auto; left; reflexivity].
    destruct f as [|f']; [discriminate EB|]. rewrite run_done. cbn [ro_app ro0 ro_effs ro_evs]. rewrite !app_nil_r.
    repeat split; auto. right. repeat split; auto. intros m. eapply run_idem; [exact EB | apply le_n].
  - rewrite (done_bag_run f n _ done_bag1_is), St. repeat split; auto. right. auto.
Qed.
Lemma Rtd_deliver f rid v a b : Rtd f a b ->
  fst (deliver rid v a) = fst (deliver rid v b) /\ Rtd f (snd (deliver rid v a)) (snd (deliver rid v b)).
Proof.
  intros [-> | (D & -> & St)].
  - cbn [deliver]. destruct (deliver rid v b) as [t b']. cbn [fst snd]. split; [reflexivity | left; reflexivity].
  - destruct (done_is_final b D) as (_ & Dl & _ & _). rewrite Dl, (done_bag_deliver rid v _ done_bag1_is). cbn [fst snd].
    split; [reflexivity | right; auto].
Qed.
Lemma Rtd_drop f rid a b : Rtd f a b -> Rtd f (dropreq rid a) (dropreq rid b).
Proof.
  intros [-> | (D & -> & St)].
  - left. reflexivity.
  - destruct (done_is_final b D) as (_ & _ & Dr & _). rewrite Dr, (done_bag_drop rid _ done_bag1_is).
    right; auto.
Qed.

(* and done c = c = and c done.  c among residuals of done: what is left of an `and` with done commands on
   either side of c *)
Definition done_padded (a b : rc) : Prop :=
  exists pre post, Forall is_done_bag pre /\ Forall is_done_bag post /\ a = RPar (pre ++ b :: post).
Definition ran (l : list rc) : list rc := map (fun _ => done_bag1) l.

Lemma ran_done l : Forall is_done_bag (ran l) /\ forallb rdone (ran l) = true.
Proof. induction l as [|x l [IH1 IH2]]; cbn; [auto|]. split; [constructor; [apply done_bag1_is | exact IH1] | exact IH2]. Qed.
Lemma run_list_done f l n : Forall is_done_bag l -> run_list (S f) [] l n = Some (ran l, n, ro0).
Proof. induction 1 as [|d l Hd _ IH]; cbn [run_list ran map]; [reflexivity|]. rewrite (done_bag_run f n d Hd), IH. reflexivity. Qed.
Lemma run_list_pad f pre b post n : Forall is_done_bag pre -> Forall is_done_bag post ->
  match run_list (S f) [] (pre ++ b :: post) n, run (S f) [] b n with
  | Some (l', n1, o1), Some (b', n2, o2) =>
      l' = ran pre ++ b' :: ran post /\ n1 = n2 /\ ro_effs o1 = ro_effs o2 /\ ro_evs o1 = ro_evs o2
  | None, None => True
  | _, _ => False
  end.
Proof.
  intros Hpre Hpost. induction Hpre as [|d pre Hd _ IH]; cbn [app run_list ran map].
  - destruct (run (S f) [] b n) as [[[b' n'] o]|]; [|exact I]. rewrite (run_list_done f post n' Hpost).
    cbn. rewrite !app_nil_r. auto.
  - rewrite (done_bag_run f n d Hd).
    destruct (run_list (S f) [] (pre ++ b :: post) n) as [[[l' n1] o1]|], (run (S f) [] b n) as [[[b' n2] o2]|]; try exact IH.
    destruct IH as (-> & -> & E1 & E2). cbn. auto.
Qed.

Lemma done_padded_run f a b n : done_padded a b ->
  match run (S f) [] a n, run f [] b n with
  | Some (a', n1, o1), Some (b', n2, o2) =>
      done_padded a' b' /\ n1 = n2 /\ ro_effs o1 = ro_effs o2 /\ ro_evs o1 = ro_evs o2 /\ rdone a' = rdone b'
  | None, None => True
  | _, _ => False
  end.
Proof.
  intros (pre & post & Hpre & Hpost & ->). rewrite run_par_eq.
  (* without fuel both sides fail: [run 0] does, and [run_list 0] of a list once it shows a head *)
  destruct f as [|f]; [destruct pre; exact I|].
  pose proof (run_list_pad f pre b post n Hpre Hpost) as P.
  destruct (run_list (S f) [] (pre ++ b :: post) n) as [[[l' n1] o1]|], (run (S f) [] b n) as [[[b' n2] o2]|]; try exact P.
  destruct P as (-> & -> & E1 & E2). destruct (ran_done pre) as [D1 F1], (ran_done post) as [D2 F2].
  split; [exists (ran pre), (ran post); auto|]. cbn [rdone]. rewrite forallb_app. cbn [forallb]. rewrite F1, F2, andb_true_r. auto.
Qed.
Lemma done_padded_deliver rid v a b : done_padded a b ->
  fst (deliver rid v a) = fst (deliver rid v b) /\ done_padded (snd (deliver rid v a)) (snd (deliver rid v b)).
Proof.
  intros (pre & post & Hpre & Hpost & ->). cbn [deliver fst snd]. rewrite map_app. cbn [map].
  assert (Pad : forall l, Forall is_done_bag l -> map (deliver rid v) l = map (fun x => (false, x)) l)
    by (intros l H; apply map_ext_in, Forall_forall; revert H; apply Forall_impl, done_bag_deliver).
  rewrite !Pad by assumption. rewrite existsb_app, map_app. cbn [existsb map].
  destruct (all_false pre) as [-> ->], (all_false post) as [-> ->]. rewrite orb_false_r.
  split; [reflexivity | exists pre, post; auto].
Qed.
Lemma done_padded_drop rid a b : done_padded a b -> done_padded (dropreq rid a) (dropreq rid b).
Proof.
  intros (pre & post & Hpre & Hpost & ->). cbn [dropreq]. rewrite map_app. cbn [map].
  rewrite !map_id_on by (eapply Forall_impl; [apply done_bag_drop | assumption]). exists pre, post. auto.
Qed.
(* an `and` / `all` of c with commands that are done, before or behind it, is c *)
Theorem par_with_dones f pre c post acts : Forall is_done_bag pre -> Forall is_done_bag post -> no_spawn acts = true ->
  rrun (S f) acts (mkRSt (RPar (pre ++ start [] c :: post)) 0 [] [] []) = ref_direct f c acts.
Proof.
  intros Hpre Hpost NS. apply (simR_trace (S f) f done_padded (done_padded_run f) done_padded_deliver done_padded_drop); [exact NS|].
  apply simR_init. exists pre, post. auto.
Qed.

(* all of nothing is done: the empty parallel node against the residuals of done *)
Definition empty_par_done (a b : rc) : Prop := a = RPar [] /\ is_done_bag b.
Theorem all_nil_is_done : forall f acts, no_spawn acts = true ->
  ref_direct (S f) (CAll []) acts = ref_direct (S f) c_done acts.
Proof.
  intros f acts NS. unfold ref_direct. cbn [start map]. fold (start [] c_done). rewrite start_done.
  apply (simR_trace (S f) (S f) empty_par_done); [| | |exact NS|].
  - intros a b n (-> & Hb). rewrite (done_bag_run f n b Hb). cbn [run].
    split; [split; [reflexivity | apply done_bag1_is] | repeat split; reflexivity].
  - intros rid v a b (-> & Hb). rewrite (done_bag_deliver rid v b Hb). cbn [deliver map existsb fst snd].
    split; [reflexivity | split; [reflexivity | exact Hb]].
  - intros rid a b (-> & Hb). rewrite (done_bag_drop rid b Hb). split; [reflexivity | exact Hb].
  - apply simR_init. split; [reflexivity | apply done_bag0_is].
Qed.

Lemma start_deliver rid v en c : deliver rid v (start en c) = (false, start en c).
Proof. apply deliver_other, start_cw. Qed.
Lemma start_drop rid en c : dropreq rid (start en c) = start en c.
Proof. apply dropreq_other, start_cw. Qed.

(* then done c = c, as whole traces: the sequence node is there until the first run, which starts c *)
Definition done_then (c : cmd) (a b : rc) : Prop := (a = RSeq done_bag0 c /\ b = start [] c) \/ a = b.
Theorem then_done_left_trace : forall f c acts t, no_spawn acts = true ->
  ref_direct f c acts = Some t -> ref_direct (S f) (CThen c_done c) acts = Some t.
Proof.
  intros f c acts t NS E. unfold ref_direct in *. cbn [start]. rewrite start_done.
  apply (fwd_trace (S f) f (done_then c)) with (s2 := mkRSt (start [] c) 0 [] [] []); [| | |exact NS| |exact E].
  - intros a b n b' n' o [(-> & ->) | ->] EB.
    + destruct f as [|f']; [discriminate EB|]. rewrite run_seq_eq. change done_bag0 with (start [] c_done).
      rewrite run_done. cbn [rdone b_strands]. rewrite EB. exists b', (ro_app ro0 o). repeat split; auto. right; reflexivity.
    + exists b', o. split; [apply run_mono; exact EB|]. split; [right; reflexivity|]. repeat split; reflexivity.
  - intros rid v a b [(-> & ->) | ->].
    + cbn [deliver]. rewrite (done_bag_deliver rid v _ done_bag0_is), start_deliver. cbn [fst snd]. split; [reflexivity | left; split; reflexivity].
    + split; [reflexivity | right; reflexivity].
  - intros rid a b [(-> & ->) | ->].
    + cbn [dropreq]. rewrite (done_bag_drop rid _ done_bag0_is), start_drop. left; split; reflexivity.
    + right; reflexivity.
  - apply simR_init. left; split; reflexivity.
Qed.
