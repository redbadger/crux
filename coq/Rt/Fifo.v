(* The output queues of a command are FIFO queues, through every function of the runtime, on every command, at
   every nesting level: whatever runs (a poll, Stream::poll_next of any command, run_until_settled, a wake, drop
   glue), the event queue and the effect queue of every command change only by losing elements at the FRONT and
   gaining elements at the BACK.  So what one command emits is handed to its host in emission order, nothing is
   inserted in the middle, nothing is reordered (C03: per-command event order; C01: effects likewise).
   An instance of the primitive-aware frame principle (Frame2.v). *)
From Coq Require Import List Arith Bool Lia.
From Crux Require Import Rt.Lang Rt.Rt Rt.Tables Rt.Frame Rt.Frame2.
Import ListNotations.

Definition fifo {A} (old new : list A) : Prop := exists d k a, old = d ++ k /\ new = k ++ a.
Lemma fifo_refl {A} (l : list A) : fifo l l.
Proof. exists [], l, []. split; [reflexivity | symmetry; apply app_nil_r]. Qed.
Lemma fifo_trans {A} (a b c : list A) : fifo a b -> fifo b c -> fifo a c.
Proof.
  intros (d1 & k1 & a1 & E1 & E2) (d2 & k2 & a2 & E3 & E4). subst a c.
  rewrite E3 in E2. symmetry in E2. apply app_eq_app in E2 as [l [[-> ->]|[-> ->]]].
  - exists (d1 ++ d2), l, (a1 ++ a2). split; rewrite <- ?app_assoc; reflexivity.
  - exists (d1 ++ k1), [], (k2 ++ a2). split; [rewrite app_nil_r; reflexivity | reflexivity].
Qed.
Lemma fifo_push {A} (l : list A) x : fifo l (l ++ [x]).
Proof. exists [], l, [x]. split; reflexivity. Qed.
Lemma fifo_pop {A} (x : A) l : fifo (x :: l) l.
Proof. exists [x], l, []. split; [reflexivity | symmetry; apply app_nil_r]. Qed.
Lemma fifo_clear {A} (l : list A) : fifo l [].
Proof. exists l, [], []. split; [symmetry; apply app_nil_r | reflexivity]. Qed.
Lemma fifo_from_nil {A} (l : list A) : fifo [] l.
Proof. exists [], [], l. split; reflexivity. Qed.

Definition Rfifo (H H' : heap) : Prop :=
  forall c, fifo (c_evs (gcmd c H)) (c_evs (gcmd c H')) /\ fifo (c_eff (gcmd c H)) (c_eff (gcmd c H')).
Lemma Rfifo_refl H : Rfifo H H. Proof. intros c; split; apply fifo_refl. Qed.
Lemma Rfifo_trans a b c : Rfifo a b -> Rfifo b c -> Rfifo a c.
Proof. intros A B x. destruct (A x) as (A1 & A2). destruct (B x) as (B1 & B2). split; eapply fifo_trans; eassumption. Qed.
Lemma Rfifo_same H H' : cmds H' = cmds H -> Rfifo H H'.
Proof. intros E c. unfold gcmd. rewrite E. split; apply fifo_refl. Qed.

Lemma prim_fifo f : prim f -> forall cm, fifo (c_evs cm) (c_evs (f cm)) /\ fifo (c_eff cm) (c_eff (f cm)).
Proof.
  (* the two pushes append, drop clears both queues, every other update leaves them alone *)
  intros P cm. destruct P; try (split; apply fifo_refl).
  - split; apply fifo_clear.
  - split; [apply fifo_push | apply fifo_refl].
  - split; [apply fifo_refl | apply fifo_push].
  - unfold spawn_one, slab_insert. destruct (_ =? _); split; apply fifo_refl.
Qed.

Lemma Rfifo_ucmd_at c f H :
  (fifo (c_evs (gcmd c H)) (c_evs (f (gcmd c H))) /\ fifo (c_eff (gcmd c H)) (c_eff (f (gcmd c H)))) -> Rfifo H (ucmd c f H).
Proof.
  intros Hf c'. destruct (Nat.eq_dec c c') as [->|Hn].
  - rewrite gcmd_ucmd_same. exact Hf.
  - rewrite gcmd_ucmd_other by exact Hn. split; apply fifo_refl.
Qed.
Lemma Rfifo_ucmd c f H : prim f -> Rfifo H (ucmd c f H).
Proof. intros P. apply Rfifo_ucmd_at. apply prim_fifo, P. Qed.
Lemma Rfifo_pop_ev c e rest H : c_evs (gcmd c H) = e :: rest -> Rfifo H (ucmd c (set_evs rest) H).
Proof. intros E. apply Rfifo_ucmd_at. rewrite E. split; [apply fifo_pop | apply fifo_refl]. Qed.
Lemma Rfifo_pop_eff c e rest H : c_eff (gcmd c H) = e :: rest -> Rfifo H (ucmd c (set_eff rest) H).
Proof. intros E. apply Rfifo_ucmd_at. rewrite E. split; [apply fifo_refl | apply fifo_pop]. Qed.
(* the frame principle appends an arbitrary record: whatever its queues hold, they grew from empty ones *)
Lemma Rfifo_add_cmd cn H : Rfifo H (mkH (chans H) (tfl H) (cmds H ++ [cn]) (woken H) (xready H) (aborted H) (log H) (hout H)).
Proof.
  intros c. destruct (lt_dec c (length (cmds H))) as [L|G].
  - rewrite gcmd_add_cmd by exact L. split; apply fifo_refl.
  - rewrite (gcmd_beyond c H) by lia. split; apply fifo_from_nil.
Qed.

Lemma frame_fifo : forall fuel, Frame2.spec Rfifo (funs fuel).
Proof.
  apply Frame2.frame_all;
    first [ exact Rfifo_refl | exact Rfifo_trans | exact Rfifo_ucmd | exact Rfifo_pop_ev | exact Rfifo_pop_eff | exact Rfifo_add_cmd
          | intros; apply Rfifo_same; reflexivity ].
Qed.

Theorem fifo_settle fuel cid H H' : settle fuel cid H = Some H' -> Rfifo H H'.
Proof. apply (frame_fifo fuel). Qed.
Theorem fifo_poll_next fuel cid w H r H' : poll_next fuel cid w H = Some (r, H') -> Rfifo H H'.
Proof. apply (frame_fifo fuel). Qed.
Theorem fifo_poll fuel c w fs H r H' : poll fuel c w fs H = Some (r, H') -> Rfifo H H'.
Proof. apply (frame_fifo fuel). Qed.
Theorem fifo_run_task fuel cid s H r H' : run_task fuel cid s H = Some (r, H') -> Rfifo H H'.
Proof. apply (frame_fifo fuel). Qed.

(* what Stream::poll_next hands to the host is the FIRST element of the command's queue at that moment
   (events before effects), and exactly that element leaves the queue *)
Theorem poll_next_hands_over_the_head : forall fuel cid w H r H',
  poll_next (S fuel) cid w H = Some (r, H') ->
  exists H1, settle fuel cid (ucmd cid (set_atomic (Some w)) H) = Some H1 /\
    match r with
    | PNEvent e => exists rest, c_evs (gcmd cid H1) = e :: rest /\ H' = ucmd cid (set_evs rest) H1
    | PNEffect e => exists rest, c_evs (gcmd cid H1) = [] /\ c_eff (gcmd cid H1) = e :: rest /\ H' = ucmd cid (set_eff rest) H1
    | _ => c_evs (gcmd cid H1) = [] /\ c_eff (gcmd cid H1) = []
    end.
Proof.
  intros fuel cid w H r H' E. destruct (poll_next_inv (funs fuel) cid w H r H' E) as (H1 & E1 & K).
  exists H1. split; [exact E1|]. destruct r; try exact K; destruct K as (A & B & _); auto.
Qed.

Lemma push_eff_appends c e H : c_eff (gcmd c (push_eff c e H)) = c_eff (gcmd c H) ++ [e].
Proof. unfold push_eff. rewrite gcmd_ucmd_same. reflexivity. Qed.
(* One hop of the way up: the future that hosts command x inside a task of command c.  When x's Stream::poll_next
   yields an item - by the theorem above the head of x's queue, which thereby leaves it - the host appends exactly
   that item (through its effect / event mapping) to the BACK of c's queue, once, and goes on polling. *)
Theorem host_hop_effect : forall f c w fs H x meff mev k e H1,
  f_leaf fs = LHost x meff mev k -> poll_next f x w H = Some (PNEffect e, H1) ->
  poll (S f) c w fs H = poll f c w fs (push_eff c (map_eff meff e) H1).
Proof.
  intros f c w fs H x meff mev k e H1 EL E. unfold poll, poll_next in *. cbn [funs step_funs rpoll]. unfold poll_body.
  rewrite EL. rewrite E. reflexivity.
Qed.
Theorem host_hop_event : forall f c w fs H x meff mev k e H1,
  f_leaf fs = LHost x meff mev k -> poll_next f x w H = Some (PNEvent e, H1) ->
  poll (S f) c w fs H = poll f c w fs (push_ev c (map_ev mev e) H1).
Proof.
  intros f c w fs H x meff mev k e H1 EL E. unfold poll, poll_next in *. cbn [funs step_funs rpoll]. unfold poll_body.
  rewrite EL. rewrite E. reflexivity.
Qed.
