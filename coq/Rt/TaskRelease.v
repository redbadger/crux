(* C13 and C06 at the level of one task: what the executor does to a task that completed, was aborted, or was
   evicted (run_until_settled's `tasks.remove(id); finished.store(true); wake_join_handles(); drop(task)` =
   finish_task) releases it: its slot in the command's slab is vacant and its flag says finished and gone.  Wakes
   and drop glue never put anything back, nor do they touch what other commands hold: they leave every command's
   task table, and every command's output queues, as they are or empty them (Rent, Rout). *)
From Coq Require Import List Arith Bool Lia.
From Crux Require Import Rt.Lang Rt.Rt Rt.Tables Rt.Frame Rt.Props Rt.Perm.
Import ListNotations.

Definition Rent (H H' : heap) : Prop := forall c, c_ent (gcmd c H') = c_ent (gcmd c H) \/ c_ent (gcmd c H') = [].
Definition Rout (H H' : heap) : Prop := forall c,
  (c_evs (gcmd c H') = c_evs (gcmd c H) /\ c_eff (gcmd c H') = c_eff (gcmd c H)) \/ (c_evs (gcmd c H') = [] /\ c_eff (gcmd c H') = []).

Lemma Rent_drop_closed : drop_closed Rent.
Proof.
  apply (pointwise_drop_closed (fun a b => c_ent b = c_ent a \/ c_ent b = [])); try (intros; left; reflexivity).
  - intros a b c [E1|E1] [E2|E2]; rewrite E2; auto.
  - intros cm. right. rewrite dropped_eq. reflexivity.
Qed.
Lemma Rout_drop_closed : drop_closed Rout.
Proof.
  apply (pointwise_drop_closed (fun a b => (c_evs b = c_evs a /\ c_eff b = c_eff a) \/ (c_evs b = [] /\ c_eff b = [])));
    try (intros; left; split; reflexivity).
  - intros a b c [[E1 E1']|E1] [[E2 E2']|E2]; rewrite ?E2, ?E2'; auto.
  - intros cm. right. rewrite dropped_eq. split; reflexivity.
Qed.

Lemma Rent_vacant H H' c s : Rent H H' -> slab_get s (gcmd c H) = None -> slab_get s (gcmd c H') = None.
Proof. intros R V. unfold slab_get in *. destruct (R c) as [E|E]; rewrite E; [exact V | destruct s; reflexivity]. Qed.

Theorem finish_task_releases : forall cid s t H,
  let H' := finish_task cid s t H in
  slab_get s (gcmd cid H') = None /\
  tf_alive (gtf (t_uid t) H') = false /\
  tf_fin (gtf (t_uid t) H') = true.
Proof.
  intros cid s t H. cbv zeta. split; [|split].
  - apply (Rent_vacant _ _ cid s (R_finish_task_tail Rent_drop_closed cid s t H)). rewrite gcmd_ucmd_same. apply slab_get_remove.
  - unfold finish_task, kill_flag. rewrite gtf_utf_same. reflexivity.
  - (* finished.store(true) comes first; wakes and the drop of the future never clear it *)
    unfold finish_task. cbv zeta. unfold kill_flag. rewrite gtf_utf_same. cbn [tf_fin].
    match goal with |- tf_fin (gtf _ (drop_fs _ _ (fold_left ?g ?l ?H5))) = true => assert (P : Rperm H5 (drop_fs (dfuel (fold_left g l H5)) (t_fs t) (fold_left g l H5))) end.
    { eapply Rperm_trans; [|apply (R_drop_fs Rperm_drop)]. apply (R_fold Rperm_refl Rperm_trans). intros; apply perm_wake. }
    apply (pm_fin _ _ P). rewrite gtf_utf_same. reflexivity.
Qed.

Theorem finish_task_contained : forall cid s t H,
  let H' := finish_task cid s t H in
  (forall s', s' <> s -> slab_get s' (gcmd cid H') = slab_get s' (gcmd cid H) \/ c_ent (gcmd cid H') = []) /\
  (forall c', c' <> cid -> c_ent (gcmd c' H') = c_ent (gcmd c' H) \/ c_ent (gcmd c' H') = []).
Proof.
  intros cid s t H. cbv zeta. pose proof (R_finish_task_tail Rent_drop_closed cid s t H) as R. split.
  - intros s' Hne. destruct (R cid) as [E|E]; [left | right; exact E].
    unfold slab_get at 1. rewrite E, gcmd_ucmd_same. apply slab_get_remove_other. congruence.
  - intros c' Hne. destruct (R c') as [E|E]; [left | right; exact E].
    rewrite E, gcmd_ucmd_other by congruence. reflexivity.
Qed.

(* run_until_settled of an aborted command, `self.tasks.clear(); return`: every command's task table is left alone or
   emptied - the aborted command's own, and those of the commands hosted below it, which are dropped with their
   hosting futures *)
Theorem aborted_settle_contained : forall f x H H',
  was_aborted x H = true -> settle (S f) x H = Some H' ->
  forall c', c_ent (gcmd c' H') = c_ent (gcmd c' H) \/ c_ent (gcmd c' H') = [].
Proof.
  intros f x H H' A E. eapply (dc_trans Rent_drop_closed); [|exact (aborted_settle_tail Rent_drop_closed f x H H' A E)].
  intros c. destruct (Nat.eq_dec x c) as [->|Hn]; [rewrite gcmd_ucmd_same; right; destruct (gcmd c H); reflexivity | rewrite gcmd_ucmd_other by exact Hn; left; reflexivity].
Qed.
