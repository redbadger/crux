(* C01 on the reference semantics under a Core (RefCore.v): a call runs to a fixpoint.  When a call
   returns, running every command of the app again produces nothing and changes nothing (nothing runnable
   is left behind, nothing is deferred to a later call), so a call that starts no work - an event whose
   handler returns Command::done() - returns no effect and only appends its event to the log. *)
From Coq Require Import List Arith Bool Lia.
From Crux Require Import Rt.Lang Rt.Rt Rt.Host Rt.Ref Rt.RefFacts Rt.RefCore Rt.RefCoreProps.
Import ListNotations.

Lemma SF_S : exists g, SF = S g. Proof. exists 1999. reflexivity. Qed.
Lemma RF_S : exists g, RF = S g. Proof. exists 1999. reflexivity. Qed.

Lemma run_bag_stuck : forall fuel b n o b' n' o',
  run_bag fuel b n o = Some (b', n', o') -> pick b' [] (b_strands b') = None.
Proof.
  induction fuel as [|f IH]; intros b n o b' n' o' E; [discriminate|]. cbn [run_bag] in E.
  destruct (pick b [] (b_strands b)) as [[[pre s] post]|] eqn:EP.
  - destruct (run_strand SF (unblock s) (b_next b) n [] o) as [[[[[os spawned] nu] n1] o1]|]; [|discriminate].
    destruct os; eapply IH; exact E.
  - inversion E; subst. exact EP.
Qed.
Lemma run_bag_of_stuck g b n o : pick b [] (b_strands b) = None -> run_bag (S g) b n o = Some (b, n, o).
Proof. intros EP. cbn [run_bag]. rewrite EP. reflexivity. Qed.

Lemma ro_map_eff0 k : ro_map_eff k ro0 = ro0.
Proof. unfold ro_map_eff. destruct (Nat.eqb k 0); reflexivity. Qed.
Lemma ro_map_ev0 k : ro_map_ev k ro0 = ro0.
Proof. unfold ro_map_ev. destruct (Nat.eqb k 0); reflexivity. Qed.

(* run is idempotent, from any counter: a stuck term allocates nothing *)
Lemma run_idem : forall fuel en c n c' n' o,
  run fuel en c n = Some (c', n', o) -> forall g m, fuel <= g -> run g en c' m = Some (c', m, ro0).
Proof.
  induction fuel as [|f IH]; intros en c n c' n' o E g m L; [discriminate|].
  destruct g as [|g]; [lia|]. assert (L' : f <= g) by lia.
  destruct c as [b|a b|l|k a|k a].
  - rewrite run_bag_eq in E. destruct (run_bag SF b n ro0) as [[[b1 n1] o1]|] eqn:EB; [|discriminate].
    inversion E; subst. apply run_bag_stuck in EB. rewrite run_bag_eq. destruct SF_S as [s ->].
    rewrite (run_bag_of_stuck s b1 m ro0 EB). reflexivity.
  - rewrite run_seq_eq in E. destruct (run f en a n) as [[[a1 n1] o1]|] eqn:EA; [|discriminate].
    destruct (rdone a1) eqn:ED.
    + destruct (run f en (start en b) n1) as [[[b2 n2] o2]|] eqn:EB; [|discriminate].
      inversion E; subst. eapply IH; [exact EB | lia].
    + inversion E; subst. rewrite run_seq_eq, (IH _ _ _ _ _ _ EA g m L'), ED. reflexivity.
  - rewrite run_par_eq in E. destruct (run_list f en l n) as [[[l1 n1] o1]|] eqn:EG; [|discriminate].
    inversion E; subst. rewrite run_par_eq.
    enough (G : forall m, run_list g en l1 m = Some (l1, m, ro0)) by (rewrite G; reflexivity).
    revert EG. refine (run_list_ind f en (fun _ _ x' _ _ => forall m, run g en x' m = Some (x', m, ro0))
                                         (fun _ _ l' _ _ => forall m, run_list g en l' m = Some (l', m, ro0)) _ _ _ l n l1 n' o).
    + intros x n0 x' n0' p EX m0. exact (IH _ _ _ _ _ _ EX g m0 L').
    + reflexivity.
    + intros x l0 n0 x' m1 p1 l' m2 p2 HP HQ m0. cbn [run_list]. rewrite HP, HQ. reflexivity.
  - rewrite run_mapeff_eq in E. destruct (run f en a n) as [[[a1 n1] o1]|] eqn:EA; [|discriminate]. inversion E; subst.
    rewrite run_mapeff_eq, (IH _ _ _ _ _ _ EA g m L'), ro_map_eff0. reflexivity.
  - rewrite run_mapev_eq in E. destruct (run f en a n) as [[[a1 n1] o1]|] eqn:EA; [|discriminate]. inversion E; subst.
    rewrite run_mapev_eq, (IH _ _ _ _ _ _ EA g m L'), ro_map_ev0. reflexivity.
Qed.

Definition settled (l : list kcmd) : Prop := forall m, run_cmds RF l m = Some (l, m, ro0).

Lemma run_cmds_settled : forall l n l' n' o, run_cmds RF l n = Some (l', n', o) -> settled l'.
Proof.
  induction l as [|c l IH]; intros n l' n' o E; cbn [run_cmds] in E.
  - inversion E; subst. intros m. reflexivity.
  - destruct (run RF (kc_env c) (kc_rc c) n) as [[[c1 n1] o1]|] eqn:EC; [|discriminate].
    destruct (run_cmds RF l n1) as [[[l2 n2] o2]|] eqn:EL; [|discriminate].
    inversion E; subst. specialize (IH _ _ _ _ EL).
    destruct (rdone c1) eqn:ED; [exact IH|].
    intros m. cbn [run_cmds kc_env kc_rc]. rewrite (run_idem _ _ _ _ _ _ _ EC RF m (le_n _)), (IH m), ED. reflexivity.
Qed.

(* the state a call leaves behind *)
Definition idle (st : kst) : Prop := ks_q st = [] /\ settled (ks_cmds st).

Lemma kprocess_idle : forall fuel hs st st', kprocess fuel hs st = Some st' -> idle st'.
Proof.
  induction fuel as [|f IH]; intros hs st st' E; [discriminate|]. cbn [kprocess] in E.
  destruct (run_cmds RF (ks_cmds st) (ks_n st)) as [[[l1 n1] o1]|] eqn:ER; [|discriminate].
  destruct (ks_q st ++ ro_evs o1) as [|e rest].
  - inversion E; subst. split; [reflexivity|]. cbn [ks_cmds]. eapply run_cmds_settled; exact ER.
  - eapply IH; exact E.
Qed.

Lemma run_cmds_app : forall a b n a' n1 oa b' n2 ob,
  run_cmds RF a n = Some (a', n1, oa) -> run_cmds RF b n1 = Some (b', n2, ob) ->
  run_cmds RF (a ++ b) n = Some (a' ++ b', n2, ro_app oa ob).
Proof.
  induction a as [|c a IH]; intros b n a' n1 oa b' n2 ob EA EB; cbn [run_cmds app] in *.
  - inversion EA; subst. rewrite EB. destruct ob; reflexivity.
  - destruct (run RF (kc_env c) (kc_rc c) n) as [[[c1 m1] o1]|]; [|discriminate].
    destruct (run_cmds RF a m1) as [[[a2 m2] o2]|] eqn:EL; [|discriminate].
    inversion EA; subst. rewrite (IH _ _ _ _ _ _ _ _ EL EB).
    destruct (rdone c1); cbn [app]; unfold ro_app; cbn [ro_effs ro_evs]; rewrite !app_assoc; reflexivity.
Qed.

Lemma run_done_cmd v n : run_cmds RF [mkKC [v] (start [v] c_done)] n = Some ([], n, ro0).
Proof. destruct RF_S as [g ->]. cbn [run_cmds kc_env kc_rc]. rewrite run_done. reflexivity. Qed.

Lemma kprocess_S g hs st : kprocess (S g) hs st =
  match run_cmds RF (ks_cmds st) (ks_n st) with
  | None => None
  | Some (l', n', o) =>
    match ks_q st ++ ro_evs o with
    | [] => Some (mkKS l' n' [] (ks_log st) (ks_out st ++ ro_effs o) (ks_reqs st) (ks_amb st))
    | e :: rest =>
      kprocess g hs (mkKS (l' ++ [mkKC [v_val e] (start [v_val e] (handler_of hs e))]) n' rest
                          (ks_log st ++ [e]) (ks_out st ++ ro_effs o) (ks_reqs st) (ks_amb st))
    end
  end.
Proof. reflexivity. Qed.

Lemma kprocess_probe hs v st lg :
  idle st -> ks_out st = [] ->
  kprocess RF hs (mkKS (ks_cmds st ++ [mkKC [v] (start [v] c_done)]) (ks_n st) (ks_q st) lg (ks_out st) (ks_reqs st) (ks_amb st))
  = Some (mkKS (ks_cmds st) (ks_n st) [] lg [] (ks_reqs st) (ks_amb st)).
Proof.
  intros [Q S] O. destruct RF_S as [g EG]. rewrite EG at 1. rewrite kprocess_S. cbn [ks_cmds ks_n ks_q ks_out ks_log ks_reqs ks_amb].
  rewrite (run_cmds_app _ _ _ _ _ _ _ _ _ (S (ks_n st)) (run_done_cmd v (ks_n st))).
  rewrite Q, O, !app_nil_r. cbn [ro_app ro0 ro_effs ro_evs app]. reflexivity.
Qed.

(* an event whose handler returns Command::done(), submitted to an idle app, returns no effect, applies
   exactly itself, starts nothing and leaves the app idle: nothing had been left behind *)
Theorem probe_silent hs tg v st :
  idle st -> ks_out st = [] -> lookup tg hs = c_done ->
  exists st', kstep hs (AEvent tg v) st = Some (KCall 0 [] (ks_log st ++ [mkEv tg v []]), st') /\
              ks_cmds st' = ks_cmds st /\ ks_n st' = ks_n st /\ ks_reqs st' = ks_reqs st /\ idle st'.
Proof.
  intros I O Hd. cbn [kstep]. rewrite Hd, (kprocess_probe hs v st _ I O).
  eexists. split; [reflexivity|]. cbn [snd kreturn ks_cmds ks_n ks_reqs ks_out map]. rewrite app_nil_r.
  split; [reflexivity | split; [reflexivity | split; [reflexivity|]]].
  destruct I as [Q S]. split; [reflexivity | exact S].
Qed.

(* C07 on the reference semantics: done means no strand, and done is final *)
Lemma rdone_no_strands c : rdone c = true -> strands_rc c = [].
Proof.
  induction c as [b|a b IH|l IH|k a IH|k a IH] using rc_ind'; cbn [rdone strands_rc]; intros D; try (apply IH; exact D); try discriminate.
  - destruct (b_strands b); [reflexivity | discriminate].
  - induction IH as [|x l Hx _ IHl]; cbn [map concat forallb] in *; [reflexivity|].
    apply andb_prop in D as [D1 D2]. rewrite (Hx D1), (IHl D2). reflexivity.
Qed.
Lemma no_strands_deliver rid v c : strands_rc c = [] -> deliver rid v c = (false, c).
Proof. intros E. apply deliver_other. rewrite cw_rc_strands, E. reflexivity. Qed.
Lemma no_strands_dropreq rid c : strands_rc c = [] -> dropreq rid c = c.
Proof. intros E. apply dropreq_other. rewrite cw_rc_strands, E. reflexivity. Qed.
(* fuel that certainly suffices to walk a residual term once.  [run] gives every part of an [RPar] the same fuel,
   so the maximum over the parts would do; the sum is generous on purpose, for a simpler induction *)
Fixpoint rdepth (c : rc) : nat :=
  match c with
  | RBag _ => 1
  | RSeq a _ => S (rdepth a)
  | RPar l => S (list_sum (map rdepth l))
  | RMapEff _ a | RMapEv _ a => S (rdepth a)
  end.
Lemma rdone_run c : rdone c = true -> forall g en n, rdepth c <= g -> run g en c n = Some (c, n, ro0).
Proof.
  induction c as [b|a b IH|l IH|k a IH|k a IH] using rc_ind'; cbn [rdone rdepth]; intros D g en n L; try discriminate;
    (destruct g as [|g]; [lia|]).
  - rewrite run_bag_eq. destruct SF_S as [s ->]. cbn [run_bag]. destruct (b_strands b) eqn:EB; [|discriminate].
    cbn [pick]. reflexivity.
  - rewrite run_par_eq. enough (G : run_list g en l n = Some (l, n, ro0)) by (rewrite G; reflexivity).
    apply le_S_n in L. revert D L. induction IH as [|x l Hx _ IHl]; cbn [forallb map run_list]; intros D L; [reflexivity|].
    apply andb_prop in D as [D1 D2]. rewrite ls_cons in L. rewrite (Hx D1 g en n), (IHl D2) by lia. reflexivity.
  - rewrite run_mapeff_eq, (IH D g en n), ro_map_eff0 by lia. reflexivity.
  - rewrite run_mapev_eq, (IH D g en n), ro_map_ev0 by lia. reflexivity.
Qed.

(* a command that is done has no strand; no answer is taken by it, no drop changes it, running it again
   produces nothing: it stays done and silent whatever the shell does next *)
Theorem done_is_final c : rdone c = true ->
  strands_rc c = [] /\
  (forall rid v, deliver rid v c = (false, c)) /\
  (forall rid, dropreq rid c = c) /\
  (forall g en n, rdepth c <= g -> run g en c n = Some (c, n, ro0)).
Proof.
  intros D. pose proof (rdone_no_strands c D) as E.
  split; [exact E | split; [intros; apply no_strands_deliver; exact E | split; [intros; apply no_strands_dropreq; exact E | apply rdone_run; exact D]]].
Qed.
