(* The scan clause of the trace predicate C06_ok (Check.C06_scan) holds of every trace of the direct host: from the
   first abort that names the outermost command on, the leftovers can be taken once, nothing new ever appears, the
   command is done as soon as both queues have been taken - whatever else the shell does afterwards (late
   resolutions, drops, further aborts, tasks spawned onto the aborted command).  The other two clauses of C06_ok,
   no_panic and C06_causal, are not treated. *)
From Coq Require Import List Arith Bool Lia.
From Crux Require Import Rt.Lang Rt.Rt Rt.Tables Rt.Frame Rt.Props Rt.Silent Rt.Host Rt.Check Rt.HostProps.
Import ListNotations.

(* settling an aborted command empties its slab: `self.tasks.clear()`, and the drop glue of the cleared tasks
   leaves an empty slab empty *)
Lemma settle_aborted_len0 X fuel H H' :
  was_aborted X H = true -> settle (S fuel) X H = Some H' -> c_len (gcmd X H') = 0.
Proof.
  intros A E.
  assert (D : drop_closed (pointwise (fun a b => c_len a = 0 -> c_len b = 0))) by (apply pointwise_drop_closed; auto).
  apply (aborted_settle_tail D fuel X H H' A E X). rewrite gcmd_ucmd_same. reflexivity.
Qed.

(* the invariant of the direct host after the outermost command was aborted.  se and sv are the flags seen_eff and
   seen_ev of C06_after: the effect / event queue has been taken since the abort, so it is empty and stays so *)
Definition J (top : nat) (se sv : bool) (st : dstate) : Prop :=
  top < length (cmds (d_H st)) /\ was_aborted top (d_H st) = true /\
  (se = true -> c_eff (gcmd top (d_H st)) = []) /\ (sv = true -> c_evs (gcmd top (d_H st)) = []).

Lemma rm_wake f w H : Rmeta H (wake f w H).
Proof. apply (dc_wake Rmeta_drop). Qed.

Lemma J_move top se sv st st' :
  J top se sv st -> Rmeta (d_H st) (d_H st') -> suffX top (d_H st) (d_H st') -> J top se sv st'.
Proof.
  intros (L & A & Je & Jv) M (Se & Sv). unfold J. repeat split.
  - destruct M as (_ & L' & _). lia.
  - eapply was_aborted_mono; eauto.
  - intros E. specialize (Je E). rewrite Je in Se. apply suffix_of_nil in Se. exact Se.
  - intros E. specialize (Jv E). rewrite Jv in Sv. apply suffix_of_nil in Sv. exact Sv.
Qed.
Lemma J_settle fuel top se sv st H1 : J top se sv st -> settle (S fuel) top (d_H st) = Some H1 ->
  (se = true -> c_eff (gcmd top H1) = []) /\ (sv = true -> c_evs (gcmd top H1) = []) /\ c_len (gcmd top H1) = 0.
Proof.
  intros Jst ES. pose proof Jst as (L & A & _). pose proof ES as M. apply (frame_meta (S fuel)) in M.
  destruct (J_move top se sv st (mkD [] H1) Jst M) as (_ & _ & Je & Jv);
    [apply (aborted_outputs_only_shrink_settle top (S fuel) top _ _ L A ES) |].
  split; [exact Je | split; [exact Jv | exact (settle_aborted_len0 top fuel _ _ A ES)]].
Qed.

Lemma resolve_req_moves top e v H : RS top H (snd (resolve_req e v H)).
Proof.
  unfold resolve_req. pose proof (R_chan_send (RS_drop top)) as M.
  destruct (e_res e) as [|c|c|c]; [apply (dc_refl (RS_drop top)) | ..];
    specialize (M c v H); destruct (chan_send c v H) as [ok H1]; cbn [snd] in *; try exact M.
  eapply (dc_trans (RS_drop top)); [exact M | apply (R_chan_drop_tx (RS_drop top))].
Qed.

Lemma dstep_moves fuel top a st o st' : dstep fuel top a st = Some (o, st') ->
  Rmeta (d_H st) (d_H st') /\ (ab top (d_H st) -> suffX top (d_H st) (d_H st')).
Proof.
  apply (dstep_R fuel top (fun H H' => Rmeta H H' /\ (ab top H -> suffX top H H'))).
  - (* R_refl *) intros H. split; [apply Rmeta_refl | intros _; apply sx_refl].
  - (* R_trans *) intros a0 b c [M1 S1] [M2 S2]. split; [eapply Rmeta_trans; eassumption|].
    intros A. eapply sx_trans; [apply S1, A | apply S2, (ab_step _ _ _ A M1)].
  - (* R_settle *) intros H H' E. split; [apply (frame_meta fuel) in E; exact E | intros [L A]; apply (aborted_outputs_only_shrink_settle top fuel top _ _ L A E)].
  - (* R_take_eff *) intros H. apply RS_ab, RS_shrink; [solve_good | intros []; split; [apply suffix_nil | apply suffix_refl]].
  - (* R_take_evs *) intros H. apply RS_ab, RS_shrink; [solve_good | intros []; split; [apply suffix_refl | apply suffix_nil]].
  - (* R_resolve *) intros e v H. apply RS_ab, resolve_req_moves.
  - (* R_drop_req *) intros e H. apply RS_ab, (R_drop_req (RS_drop top)).
  - (* R_add_aborted *) intros n H. apply RS_ab, (fc_add_aborted (RS_closed top)).
  - (* R_spawn *) intros t H. apply RS_ab. unfold new_tflag; cbn [snd].
    eapply (dc_trans (RS_drop top)); [apply (fc_add_tflag (RS_closed top)) | apply (fc_spawnq_push (RS_closed top))].
Qed.

Theorem drun_after_abort : forall fuel top acts st os se sv,
  J top se sv st -> drun (S fuel) top acts st = Some os -> C06_after os acts se sv = true.
Proof.
  intros fuel top. induction acts as [|a acts IH]; intros st os se sv Jst E; simpl in E.
  - inversion E; reflexivity.
  - destruct (dstep (S fuel) top a st) as [[o st']|] eqn:E1; [|discriminate].
    destruct (drun (S fuel) top acts st') as [os'|] eqn:E2; [|discriminate].
    inversion E; subst; clear E.
    (* the invariant holds of st' with the same flags; taking a queue sets its flag *)
    assert (J' : J top se sv st').
    { destruct (dstep_moves _ _ _ _ _ _ E1) as [M S]. destruct Jst as (L & A & Je & Jv). eapply J_move; [repeat split; eassumption | exact M | apply S; split; assumption]. }
    pose proof (dstep_obs _ _ _ _ _ _ E1) as O. destruct o; cbn [C06_after]; try exact (IH _ _ _ _ J' E2); try contradiction.
    all: destruct O as (H1 & ES & O); destruct (J_settle _ _ _ _ _ _ Jst ES) as (Je1 & Jv1 & L0); apply andb_true_iff; split.
    + destruct O as [-> _]. destruct se; [|reflexivity]. simpl. rewrite (Je1 eq_refl). reflexivity.
    + eapply IH; [|exact E2]. destruct O as [_ EH]. destruct J' as (L' & A' & _ & Jv'). repeat split; auto.
      intros _. rewrite EH, gcmd_ucmd_same. destruct (gcmd top H1); reflexivity.
    + destruct O as [-> _]. destruct sv; [|destruct se; reflexivity]. rewrite (Jv1 eq_refl). destruct se; reflexivity.
    + eapply IH; [|exact E2]. destruct O as [_ EH]. destruct J' as (L' & A' & Je' & _). repeat split; auto.
      intros _. rewrite EH, gcmd_ucmd_same. destruct (gcmd top H1); reflexivity.
    + destruct O as (_ & -> & ->). destruct se; [|reflexivity]. destruct sv; [|reflexivity]. simpl. rewrite (Je1 eq_refl), (Jv1 eq_refl), L0. reflexivity.
    + exact (IH _ _ _ _ J' E2).
Qed.

(* what the scan needs to know about the outermost command before the abort arrives *)
Definition K (top : nat) (names : list nat) (st : dstate) : Prop :=
  top < length (cmds (d_H st)) /\ c_names (gcmd top (d_H st)) = names /\ c_epoch (gcmd top (d_H st)) < length (cmds (d_H st)).
Lemma K_step top names st st' : K top names st -> Rmeta (d_H st) (d_H st') -> K top names st'.
Proof.
  intros (L & N & Ep) (_ & L' & M). specialize (M top L). unfold meta in M. inversion M as [[Mn Me]].
  unfold K. rewrite Mn, Me. repeat split; auto; lia.
Qed.
Lemma K_abort top names st n : K top names st -> existsb (Nat.eqb n) names = true ->
  J top false false (mkD (d_reqs st) (add_aborted n (d_H st))).
Proof.
  intros (L & N & Ep) Hn. unfold J; simpl. repeat split; try discriminate.
  - exact L.
  - unfold was_aborted, add_aborted, gcmd; simpl. fold (gcmd top (d_H st)). rewrite N.
    apply existsb_exists in Hn as (x & Hx & Ex). apply Nat.eqb_eq in Ex. subst x.
    apply existsb_exists. exists n. split; [exact Hx|]. simpl. rewrite Nat.eqb_refl. simpl.
    apply orb_true_iff. left. apply Nat.ltb_lt. exact Ep.
Qed.

Theorem drun_scan : forall fuel top names acts st os,
  K top names st -> drun (S fuel) top acts st = Some os -> C06_scan names acts os = true.
Proof.
  intros fuel top names. induction acts as [|a acts IH]; intros st os Kst E; simpl in E.
  - inversion E; reflexivity.
  - destruct (dstep (S fuel) top a st) as [[o st']|] eqn:E1; [|discriminate].
    destruct (drun (S fuel) top acts st') as [os'|] eqn:E2; [|discriminate].
    inversion E; subst; clear E.
    pose proof (K_step _ _ _ _ Kst (proj1 (dstep_moves _ _ _ _ _ _ E1))) as K'.
    destruct a; cbn [C06_scan]; try (eapply IH; eassumption).
    destruct (existsb (Nat.eqb name) names) eqn:Hn; [|eapply IH; eassumption].
    cbn [dstep] in E1. inversion E1; subst; clear E1.
    eapply drun_after_abort; [|exact E2]. apply (K_abort top names); assumption.
Qed.

Lemma new_cmd_K names en m ex :
  K (fst (new_cmd names None en m ex H0)) names (mkD [] (snd (new_cmd names None en m ex H0))).
Proof.
  (* it holds when the record has been appended; spawning the extra tasks is a step along Rmeta *)
  unfold new_cmd, new_tflag. cbn [fst snd H0 tfl cmds chans woken xready aborted log hout length app].
  set (Hb := mkH [] _ _ [] [] [] [] []).
  apply (K_step 0 names (mkD [] Hb)); [unfold K; cbn; auto|].
  apply (R_fold Rmeta_refl Rmeta_trans). intros t Hh. cbv beta iota.
  eapply Rmeta_trans; [|apply Rmeta_ucmd; solve_good]. apply Rmeta_same_cmds; reflexivity.
Qed.
