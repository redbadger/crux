(* Cancellation is final and silent (C06), at every nesting level: while a command X is aborted, no
   step of the runtime - on any command, its host, its nested commands, or X itself - adds an effect or
   an event to X's output queues; they can only be emptied (taken by the host, or dropped).
   Proved for every fuel and every heap, with no well-formedness assumption on the heap, as an instance of
   the guarded frame principle: the precondition is "X is aborted", and run_until_settled only polls the
   tasks of commands that were not aborted when it looked, hence of commands other than X. *)
From Coq Require Import List Arith Bool Lia.
From Crux Require Import Rt.Lang Rt.Rt Rt.Tables Rt.Frame Rt.Props.
Import ListNotations.

Definition is_suffix {A} (l' l : list A) : Prop := exists pre, l = pre ++ l'.
Lemma suffix_refl {A} (l : list A) : is_suffix l l. Proof. exists []. reflexivity. Qed.
Lemma suffix_trans {A} (a b c : list A) : is_suffix b a -> is_suffix c b -> is_suffix c a.
Proof. intros [p1 ->] [p2 ->]. exists (p1 ++ p2). rewrite app_assoc. reflexivity. Qed.
Lemma suffix_nil {A} (l : list A) : is_suffix [] l. Proof. exists l. rewrite app_nil_r. reflexivity. Qed.
Lemma suffix_tl {A} (x : A) (l : list A) : is_suffix l (x :: l). Proof. exists [x]. reflexivity. Qed.

Lemma suffix_of_nil {A} (l : list A) : is_suffix l [] -> l = [].
Proof. intros [pre E]. symmetry in E. apply app_eq_nil in E. apply E. Qed.

Section Silent.
  Variable X : nat.
  Definition outs (H : heap) := (c_eff (gcmd X H), c_evs (gcmd X H)).
  Definition suffX (H H' : heap) : Prop :=
    is_suffix (c_eff (gcmd X H')) (c_eff (gcmd X H)) /\ is_suffix (c_evs (gcmd X H')) (c_evs (gcmd X H)).
  Lemma sx_refl H : suffX H H. Proof. split; apply suffix_refl. Qed.
  Lemma sx_trans a b c : suffX a b -> suffX b c -> suffX a c.
  Proof. intros [A1 A2] [B1 B2]. split; eapply suffix_trans; eassumption. Qed.
  Lemma sx_same H H' : cmds H' = cmds H -> suffX H H'.
  Proof. intros E. unfold suffX, gcmd. rewrite E. split; apply suffix_refl. Qed.
  Lemma sx_ucmd_other c f H : c <> X -> suffX H (ucmd c f H).
  Proof. intros Hne. unfold suffX. rewrite gcmd_ucmd_other by exact Hne. split; apply suffix_refl. Qed.
  Lemma sx_ucmd_shrink c f H :
    is_suffix (c_eff (f (gcmd c H))) (c_eff (gcmd c H)) /\ is_suffix (c_evs (f (gcmd c H))) (c_evs (gcmd c H)) -> suffX H (ucmd c f H).
  Proof.
    intros Hf. destruct (Nat.eq_dec c X) as [->|Hne]; [|apply sx_ucmd_other; exact Hne].
    unfold suffX. rewrite gcmd_ucmd_same. exact Hf.
  Qed.
  Lemma sx_pop_eff cid e rest H : c_eff (gcmd cid H) = e :: rest -> suffX H (ucmd cid (set_eff rest) H).
  Proof. intros E. apply sx_ucmd_shrink. rewrite E. split; [apply suffix_tl | apply suffix_refl]. Qed.
  Lemma sx_pop_ev cid e rest H : c_evs (gcmd cid H) = e :: rest -> suffX H (ucmd cid (set_evs rest) H).
  Proof. intros E. apply sx_ucmd_shrink. rewrite E. split; [apply suffix_refl | apply suffix_tl]. Qed.

  Definition ab (H : heap) : Prop := X < length (cmds H) /\ was_aborted X H = true.
  Lemma ab_step H H' : ab H -> Rmeta H H' -> ab H'.
  Proof. intros [L A] R. split; [destruct R as (_ & L' & _); lia | eapply was_aborted_mono; eauto]. Qed.

  (* Rmeta carries [ab] to the intermediate heaps; the guard on X keeps an appended command (whose record is
     arbitrary in the frame principle) from being taken for X *)
  Definition RS (H H' : heap) : Prop := Rmeta H H' /\ (X < length (cmds H) -> suffX H H').
  Lemma RS_same H H' : aborted H' = aborted H -> cmds H' = cmds H -> RS H H'.
  Proof. intros A B. split; [apply Rmeta_same_cmds | intros _; apply sx_same]; assumption. Qed.
  Lemma RS_shrink c f H : good f -> (forall cm, is_suffix (c_eff (f cm)) (c_eff cm) /\ is_suffix (c_evs (f cm)) (c_evs cm)) -> RS H (ucmd c f H).
  Proof. intros Gf Hf. split; [apply Rmeta_ucmd, Gf | intros _; apply sx_ucmd_shrink, Hf]. Qed.
  Lemma RS_other c f H : good f -> c <> X -> RS H (ucmd c f H).
  Proof. intros Gf Hne. split; [apply Rmeta_ucmd, Gf | intros _; apply sx_ucmd_other, Hne]. Qed.

  Lemma RS_closed : frame_closed ab (fun c => c <> X) RS.
  Proof.
    assert (T : forall a b c, RS a b -> RS b c -> RS a c).
    { intros a b c [A1 A2] [B1 B2]. split; [eapply Rmeta_trans; eassumption|].
      intros L. eapply sx_trans; [apply A2, L | apply B2]. destruct A1 as (_ & L' & _). lia. }
    (* an update of a command record that lengthens neither output queue; the premise is stated of a record written
       out field by field so that [cbn] computes f on it, whichever setter f is *)
    assert (K : forall c f H, good f -> (forall a r s e n l ef ev at' nm t0 ep, let cm := mkCmd a r s e n l ef ev at' nm t0 ep in
                 is_suffix (c_eff (f cm)) ef /\ is_suffix (c_evs (f cm)) ev) -> RS H (ucmd c f H))
      by (intros c f H Gf Hf; apply RS_shrink; [exact Gf | intros []; apply Hf]).
    destruct good_shapes as (g1 & g2 & g3 & g4 & g5 & g6 & g7 & g8 & g9 & g10 & g11 & g12 & g13 & g14).
    assert (Rf : forall H, RS H H) by (intros; apply RS_same; reflexivity).
    assert (D : drop_closed RS).
    { constructor; first [exact Rf | exact T | intros; apply RS_same; reflexivity | idtac].
      - apply R_wake; first [exact Rf | exact T | intros; apply RS_same; reflexivity | idtac];
          intros; apply K; auto; split; apply suffix_refl.
      - intros; apply K; auto. intros; split; apply suffix_nil. }
    constructor; first [exact D | intros; apply RS_same; reflexivity | idtac];
      (* the cell, the spawn queue, the ready queue and the slab are not output queues *)
      try (intros; apply K; auto; intros; unfold spawn_one, slab_insert; cbn; try destruct (_ =? _); split; apply suffix_refl).
    - (* fc_P *) intros H H' A [M _]. eapply ab_step; eassumption.
    - (* fc_G *) intros cid H [_ A] E ->. rewrite A in E. discriminate.
    - (* fc_ev_push *) intros; apply RS_other; auto.
    - (* fc_eff_push *) intros; apply RS_other; auto.
    - (* fc_pop_ev *) intros c e rest H E. split; [apply Rmeta_ucmd; auto | intros _; eapply sx_pop_ev; exact E].
    - (* fc_pop_eff *) intros c e rest H E. split; [apply Rmeta_ucmd; auto | intros _; eapply sx_pop_eff; exact E].
    - (* fc_add_aborted *) intros n H. split; [apply Rmeta_add_aborted | intros _; apply sx_same; reflexivity].
    - (* fc_add_cmd *) intros c H. split; [apply Rmeta_add_cmd|]. intros L. unfold suffX. rewrite gcmd_add_cmd by exact L. split; apply suffix_refl.
  Qed.
  Definition RS_drop := fc_drop RS_closed.
  Lemma RS_ab H H' : RS H H' -> Rmeta H H' /\ (ab H -> suffX H H').
  Proof. intros [M S]. split; [exact M | intros [L _]; exact (S L)]. Qed.
End Silent.

Theorem aborted_outputs_only_shrink_settle : forall X fuel cid H H',
  X < length (cmds H) -> was_aborted X H = true -> settle fuel cid H = Some H' -> suffX X H H'.
Proof.
  intros X fuel cid H H' L A E. destruct (frameG_all (RS_closed X) fuel) as (_ & _ & Hs & _).
  exact (proj2 (Hs cid H H' (conj L A) E) L).
Qed.
Theorem aborted_outputs_only_shrink_poll_next : forall X fuel cid w H r H',
  X < length (cmds H) -> was_aborted X H = true -> poll_next fuel cid w H = Some (r, H') -> suffX X H H'.
Proof.
  intros X fuel cid w H r H' L A E. destruct (frameG_all (RS_closed X) fuel) as (_ & Hn & _).
  exact (proj2 (Hn cid w H r H' (conj L A) E) L).
Qed.
