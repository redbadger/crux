(* The order invariant (EvictHost.OrdH: a task only hosts commands created after its own command; the cell of a
   command only holds a waker of an earlier command or of the executor) on the CORE host: it holds of the empty
   core and is preserved by Stream::poll_next on a top-level command, by QueuingExecutor::run_task / run_all, by
   CommandSpawner::spawn, by the event loop and by every shell action - hence of every state the Core model can
   reach, for every app, history and fuel.  With it the theorems that assume the invariant (eviction soundness,
   "a wake never runs out of fuel", "the hosting poll keeps its waker registered") apply to every reachable state
   of an app under a Core.  Also: the wake chain reaches the executor at ANY nesting depth (no fuel hypothesis). *)
From Coq Require Import List Arith Bool Lia.
From Crux Require Import Rt.Lang Rt.Rt Rt.Tables Rt.Frame Rt.Props Rt.Perm Rt.Evict Rt.EvictHost Rt.Host Rt.HostProps Rt.Chain.
Import ListNotations.

Lemma OrdH_poll_next fuel x w H r H' :
  waker_lt w x -> poll_next fuel x w H = Some (r, H') -> OrdH H -> OrdH H'.
Proof. intros Wl E O. destruct (specB_all fuel) as (_ & Bn & _). exact (StB_ord _ _ _ (proj1 (Bn x w H r H' Wl O E)) O). Qed.

Lemma OrdH_same H H' : cmds H' = cmds H -> OrdH H -> OrdH H'.
Proof. intros E. unfold OrdH, gcmd. rewrite E. auto. Qed.

Lemma xget_xremove q s : xget q (xremove q s) = None.
Proof. unfold xget, xremove. cbn [fst]. rewrite Tables.getd_updd_same. reflexivity. Qed.

(* QueuingExecutor::run_task on the task hosting top-level command cid forwards the command's effects and events
   until Stream::poll_next answers Pending (or the command is finished and its slot is freed).  If the slot still
   hosts cid afterwards, cid is quiet and its cell holds the executor task's waker OR the task is in the executor's
   ready queue again: whatever happens to the command later finds the executor subscribed
   (Chain.wake_reaches_executor) or about to look.  One layer of "a call runs to quiescence and no wake-up is lost". *)
Theorem xrun_task_leaves_command_quiet_and_subscribed : forall FUEL' fuel q k k' cid,
  OrdH (k_H k) -> xget q (k_slab k) = Some cid -> cid < length (cmds (k_H k)) ->
  xrun_task (S FUEL') fuel q k = Some k' -> xget q (k_slab k') = Some cid ->
  c_evs (gcmd cid (k_H k')) = [] /\ c_eff (gcmd cid (k_H k')) = [] /\
  (was_aborted cid (k_H k') = false -> c_ready (gcmd cid (k_H k')) = [] /\ c_spawnq (gcmd cid (k_H k')) = []) /\
  (c_atomic (gcmd cid (k_H k')) = Some (WExec q) \/ In q (xready (k_H k'))) /\ OrdH (k_H k').
Proof.
  intros FUEL'. induction fuel as [|f IH]; intros q k k' cid O G L E G'; [discriminate|]. cbn [xrun_task] in E.
  rewrite G in E.
  destruct (poll_next (S FUEL') cid (WExec q) (k_H k)) as [[r H1]|] eqn:EP; [|discriminate].
  destruct (specB_all (S FUEL')) as (_ & Bn & _). destruct (Bn cid (WExec q) (k_H k) r H1 I O EP) as (S1 & _).
  pose proof (StB_ord _ _ _ S1 O) as O1. pose proof (StB_len _ _ _ _ S1 L) as L1.
  destruct r as [| |e|e].
  - injection E as <-. cbn [setH k_H].
    exact (poll_next_pending_quiet_and_subscribed_any FUEL' cid (WExec q) (k_H k) H1 O I L EP).
  - (* finished: the slot is freed *)
    injection E as <-. cbn [k_slab] in G'. rewrite xget_xremove in G'. discriminate.
  - (* an effect: handed to the request channel, poll again *)
    eapply (IH q _ k' cid); [| | |exact E|exact G']; cbn [k_H k_slab]; [eapply OrdH_same; [|exact O1]; reflexivity | exact G | exact L1].
  - eapply (IH q _ k' cid); [| | |exact E|exact G']; cbn [k_H k_slab]; [exact O1 | exact G | exact L1].
Qed.

Section WithFuel.
Variable FUEL : nat.

Lemma spawn_cmd_OrdH c en k : OrdH (k_H k) -> OrdH (k_H (spawn_cmd c en k)).
Proof.
  intros O. unfold spawn_cmd.
  destruct (new_cmd (cx_name (compile c)) None en (cx_main (compile c)) (cx_extra (compile c)) (k_H k)) as [cid H1] eqn:E.
  cbn [k_H]. eapply OrdH_new_cmd; [exact E | exact O].
Qed.

Lemma process_OrdH fuel hs k k' : process FUEL fuel hs k = Some k' -> OrdH (k_H k) -> OrdH (k_H k').
Proof.
  (* the premises of HostProps.process_pass: poll_next with an executor task's waker, push_hout, drop_cmd, set_xready,
     new_cmd *)
  intros E. apply (process_pass FUEL (fun H H' => OrdH H -> OrdH H')) in E; [apply E | auto | auto | ..].
  - intros cid q H r H' EP. exact (OrdH_poll_next FUEL cid (WExec q) H r H' I EP).
  - intros e H. apply OrdH_same. reflexivity.
  - intros f cid H. apply (StB_ord 0), (R_drop_cmd (StB_drop_closed 0)).
  - intros l H. apply OrdH_same. reflexivity.
  - intros names ep en m ex H cid H1. apply OrdH_new_cmd.
Qed.

(* Core::process_event / resolve: run the event loop, then hand over the requests *)
Lemma call_OrdH hs k1 o k' :
  match process FUEL FUEL hs k1 with None => None | Some k2 => Some (take_out 0 k2) end = Some (o, k') -> OrdH (k_H k1) -> OrdH (k_H k').
Proof.
  destruct (process FUEL FUEL hs k1) as [k2|] eqn:E2; [|discriminate]. intros [= _ <-] O.
  exact (process_OrdH _ _ _ _ E2 O).
Qed.
Theorem cstep_OrdH hs a k o k' : cstep FUEL hs a k = Some (o, k') -> OrdH (k_H k) -> OrdH (k_H k').
Proof.
  intros E O. destruct a; cbn [cstep] in E; try (injection E as <- <-; exact O).
  - (* AResolve *)
    destruct (find_rq tg v occ 0 (k_reqs k)) as [i|]; [|injection E as <- <-; exact O].
    destruct (rq_dropped _); [injection E as <- <-; exact O|].
    match type of E with context[resolve_req ?e ?x ?Hh] =>
      pose proof (OrdH_resolve_req e x Hh O) as O'; destruct (resolve_req e x Hh) as [[code e'] H1] end. cbn [snd] in O'.
    destruct (Nat.eqb code 0); [exact (call_OrdH _ _ _ _ E O') | injection E as <- <-; exact O'].
  - (* ADropReq *)
    destruct (find_rq tg v occ 0 (k_reqs k)) as [i|]; [|injection E as <- <-; exact O].
    destruct (rq_dropped _); injection E as <- <-; [exact O|]. cbn [k_H].
    apply (StB_ord 0 _ _ (R_drop_req (StB_drop_closed 0) _ (k_H k)) O).
  - (* AEvent *)
    exact (call_OrdH _ _ _ _ E (spawn_cmd_OrdH _ _ _ O)).
Qed.

(* the last hop: the executor task moves what the top-level command hands over to the back of the core's event channel
   (an event) or of its request channel (an effect), and polls again *)
Lemma xrun_task_moves_event f q k cid e H1 :
  xget q (k_slab k) = Some cid -> poll_next FUEL cid (WExec q) (k_H k) = Some (PNEvent e, H1) ->
  xrun_task FUEL (S f) q k = xrun_task FUEL f q (mkC H1 (k_spawn k) (k_slab k) (k_events k ++ [e]) (k_out k) (k_log k) (k_reqs k)).
Proof. intros G E. cbn [xrun_task]. rewrite G, E. reflexivity. Qed.
Lemma xrun_task_moves_effect f q k cid e H1 :
  xget q (k_slab k) = Some cid -> poll_next FUEL cid (WExec q) (k_H k) = Some (PNEffect e, H1) ->
  xrun_task FUEL (S f) q k = xrun_task FUEL f q (mkC (push_hout e H1) (k_spawn k) (k_slab k) (k_events k) (k_out k) (k_log k) (k_reqs k)).
Proof. intros G E. cbn [xrun_task]. rewrite G, E. reflexivity. Qed.

(* ... and when the command is finished the executor releases it: the slot is freed and the Command value dropped *)
Lemma xrun_task_done_releases f q k cid H1 :
  xget q (k_slab k) = Some cid -> poll_next FUEL cid (WExec q) (k_H k) = Some (PNDone, H1) -> cid < length (cmds H1) ->
  exists k', xrun_task FUEL (S f) q k = Some k' /\ xget q (k_slab k') = None /\ c_alive (gcmd cid (k_H k')) = false.
Proof.
  intros G E L. cbn [xrun_task]. rewrite G, E. eexists. split; [reflexivity|]. cbn [k_slab k_H].
  split; [apply xget_xremove | unfold dfuel; apply Perm.drop_cmd_dead; exact L].
Qed.

Inductive creach (hs : handlers) : core -> core -> Prop :=
| cr_refl k : creach hs k k
| cr_step k a o k1 k2 : cstep FUEL hs a k = Some (o, k1) -> creach hs k1 k2 -> creach hs k k2.
Theorem creach_OrdH hs k k' : creach hs k k' -> OrdH (k_H k) -> OrdH (k_H k').
Proof. induction 1 as [k|k a o k1 k2 E _ IH]; intros O; [exact O | apply IH; eapply cstep_OrdH; eauto]. Qed.
Corollary core_reachable_OrdH hs k : creach hs core0 k -> OrdH (k_H k).
Proof. intros R. eapply creach_OrdH; [exact R | exact OrdH_H0]. Qed.
End WithFuel.

(* Chain.wake_reaches_executor needs more fuel than the chain is long; wakes start with wfuel w, and under the order
   invariant that is always enough *)
Theorem wake_reaches_executor_any_depth : forall l H w q,
  OrdH H -> chain H w l q -> xready (wake (wfuel w) w H) = xready H ++ [q].
Proof.
  intros l H w q O Ch.
  rewrite <- (wake_fuel_suffices (S (length l)) w H (OrdH_AOrd H O)).
  eapply wake_reaches_executor; [exact Ch | lia].
Qed.
