(* Lists used as total tables: algebra of getd / updd; and the equations by which the proofs read the heap, the slab,
   wake, the drop glue, an aborted settle, and the results of poll_next and run_task without unfolding them. *)
From Coq Require Import List Arith Bool Lia.
From Crux Require Import Rt.Lang Rt.Rt.
Import ListNotations.

Lemma nth_nil {A} (d : A) n : nth n [] d = d.
Proof. destruct n; reflexivity. Qed.
Lemma getd_updd_same {A} (d : A) n f l : getd d n (updd d n f l) = f (getd d n l).
Proof.
  unfold getd. revert l; induction n as [|n IH]; intros [|x l]; simpl; auto;
    try (rewrite IH, nth_nil; reflexivity).
Qed.
Lemma getd_updd_other {A} (d : A) n m f l : n <> m -> getd d m (updd d n f l) = getd d m l.
Proof.
  unfold getd. revert m l; induction n as [|n IH]; intros [|m] [|x l] Hne; simpl; auto; try lia;
    try (apply nth_nil); try (rewrite IH by lia; apply nth_nil); try (apply IH; lia).
Qed.
Lemma length_updd {A} (d : A) n f l : length l <= length (updd d n f l).
Proof.
  revert l; induction n as [|n IH]; intros [|x l]; simpl; auto; try lia;
    try (specialize (IH l); lia).
Qed.

Lemma lt_length_updd {A} (d : A) n f l : n < length (updd d n f l).
Proof.
  revert l; induction n as [|n IH]; intros [|x l]; simpl; try lia.
  - specialize (IH []). lia.
  - specialize (IH l). lia.
Qed.

Lemma gcmd_ucmd_same c f H : gcmd c (ucmd c f H) = f (gcmd c H).
Proof. unfold gcmd, ucmd; simpl. apply getd_updd_same. Qed.
Lemma gcmd_ucmd_other c c' f H : c <> c' -> gcmd c' (ucmd c f H) = gcmd c' H.
Proof. intros Hne. unfold gcmd, ucmd; simpl. apply getd_updd_other; exact Hne. Qed.

Lemma gch_uch_same c f H : gch c (uch c f H) = f (gch c H).
Proof. unfold gch, uch; simpl. apply getd_updd_same. Qed.
Lemma gch_uch_other c c' f H : c <> c' -> gch c' (uch c f H) = gch c' H.
Proof. intros Hne. unfold gch, uch; simpl. apply getd_updd_other; exact Hne. Qed.
Lemma gtf_utf_same u f H : gtf u (utf u f H) = f (gtf u H).
Proof. unfold gtf, utf; simpl. apply getd_updd_same. Qed.
Lemma gtf_utf_other u u' f H : u <> u' -> gtf u' (utf u f H) = gtf u' H.
Proof. intros Hne. unfold gtf, utf; simpl. apply getd_updd_other; exact Hne. Qed.

Lemma gcmd_ucmd_pres (P : cmdst -> Prop) c f H x : (P (gcmd x H) -> P (f (gcmd x H))) -> P (gcmd x H) -> P (gcmd x (ucmd c f H)).
Proof. intros Hf E. destruct (Nat.eq_dec c x) as [->|Hne]; [rewrite gcmd_ucmd_same; apply Hf, E | rewrite gcmd_ucmd_other by exact Hne; exact E]. Qed.
Lemma gch_uch_pres (P : chan -> Prop) c f H x : (P (gch x H) -> P (f (gch x H))) -> P (gch x H) -> P (gch x (uch c f H)).
Proof. intros Hf E. destruct (Nat.eq_dec c x) as [->|Hne]; [rewrite gch_uch_same; apply Hf, E | rewrite gch_uch_other by exact Hne; exact E]. Qed.
Lemma gtf_utf_pres (P : tflag -> Prop) u f H x : (P (gtf x H) -> P (f (gtf x H))) -> P (gtf x H) -> P (gtf x (utf u f H)).
Proof. intros Hf E. destruct (Nat.eq_dec u x) as [->|Hne]; [rewrite gtf_utf_same; apply Hf, E | rewrite gtf_utf_other by exact Hne; exact E]. Qed.

Lemma gcmd_set_woken c g H : gcmd c (set_woken g H) = gcmd c H. Proof. reflexivity. Qed.

Lemma length_ucmd c f H : length (cmds H) <= length (cmds (ucmd c f H)).
Proof. apply length_updd. Qed.
Lemma gcmd_beyond c H : length (cmds H) <= c -> gcmd c H = cmd0.
Proof. apply nth_overflow. Qed.
Lemma gcmd_add_cmd_cases cn c H :
  gcmd c (mkH (chans H) (tfl H) (cmds H ++ [cn]) (woken H) (xready H) (aborted H) (log H) (hout H)) =
  if c <? length (cmds H) then gcmd c H else if c =? length (cmds H) then cn else cmd0.
Proof.
  unfold gcmd, getd; cbn [cmds]. destruct (Nat.ltb_spec c (length (cmds H))) as [L|L]; [apply app_nth1, L|].
  destruct (Nat.eqb_spec c (length (cmds H))) as [->|Hne]; [rewrite app_nth2, Nat.sub_diag by apply le_n; reflexivity|].
  apply nth_overflow. rewrite app_length. simpl. lia.
Qed.
Lemma gcmd_add_cmd cn c H : c < length (cmds H) ->
  gcmd c (mkH (chans H) (tfl H) (cmds H ++ [cn]) (woken H) (xready H) (aborted H) (log H) (hout H)) = gcmd c H.
Proof. intros L. rewrite gcmd_add_cmd_cases. apply Nat.ltb_lt in L. rewrite L. reflexivity. Qed.

Lemma updd_id {A} (d : A) f : forall n l, n < length l -> f (getd d n l) = getd d n l -> updd d n f l = l.
Proof.
  induction n as [|n IH]; intros [|x xs] L E; simpl in L; try lia.
  - unfold getd in E; simpl in E. change (updd d 0 f (x :: xs)) with (f x :: xs). rewrite E. reflexivity.
  - change (updd d (S n) f (x :: xs)) with (x :: updd d n f xs). rewrite IH; [reflexivity | lia | exact E].
Qed.
Lemma ucmd_id c f H : c < length (cmds H) -> f (gcmd c H) = gcmd c H -> ucmd c f H = H.
Proof. intros L E. unfold ucmd. rewrite (updd_id cmd0 f c (cmds H) L E). destruct H; reflexivity. Qed.
Lemma In_updd {A} (d : A) n f l x : In x (updd d n f l) -> x = f (getd d n l) \/ In x l \/ x = d.
Proof.
  unfold getd. revert l; induction n as [|n IH]; intros [|y l]; simpl.
  - intros [<-|[]]. left; reflexivity.
  - intros [<-|I]; [left; reflexivity | right; left; right; exact I].
  - intros [<-|I]; [right; right; reflexivity|]. apply IH in I. rewrite nth_nil in I. destruct I as [E|[[]|E]]; [left; exact E | right; right; exact E].
  - intros [<-|I]; [right; left; left; reflexivity|]. apply IH in I. destruct I as [E|[I|E]]; [left; exact E | right; left; right; exact I | right; right; exact E].
Qed.

(* the slab: slab_get reads with nth_error, everything else with getd *)
Lemma slab_get_getd k c : slab_get k c = match getd (Vac 0) k (c_ent c) with Occ t => Some t | Vac _ => None end.
Proof. unfold slab_get, getd. generalize (c_ent c) as l. induction k as [|k IH]; intros [|x l]; cbn; auto. Qed.
Lemma slab_get_set s t cm : slab_get s (slab_set s t cm) = Some t.
Proof. rewrite slab_get_getd. cbn [slab_set set_slab c_ent]. rewrite getd_updd_same. reflexivity. Qed.
Lemma slab_get_remove s cm : slab_get s (slab_remove s cm) = None.
Proof. rewrite slab_get_getd. cbn [slab_remove set_slab c_ent]. rewrite getd_updd_same. reflexivity. Qed.
Lemma slab_get_remove_other s s' cm : s <> s' -> slab_get s' (slab_remove s cm) = slab_get s' cm.
Proof. intros Hne. rewrite !slab_get_getd. cbn [slab_remove set_slab c_ent]. rewrite getd_updd_other by exact Hne. reflexivity. Qed.

(* stated so that no proof unfolds the six nested setters over a variable: that term has twelve to the sixth nodes *)
Definition dropped (cm : cmdst) : cmdst := set_alive false (set_eff [] (set_evs [] (slab_clear (set_spawnq [] (set_ready [] cm))))).
Lemma dropped_eq cm : dropped cm = mkCmd false [] [] [] 0 0 [] [] (c_atomic cm) (c_names cm) (c_task0 cm) (c_epoch cm).
Proof. destruct cm; reflexivity. Qed.
Definition drop_task (f : nat) (Hh : heap) (t : trec) : heap := kill_flag (t_uid t) (drop_fs f (t_fs t) Hh).
Lemma drop_cmd_S f cid H : drop_cmd (S f) cid H =
  fold_left (fun Hh e => match e with Occ t => drop_task f Hh t | Vac _ => Hh end) (c_ent (gcmd cid H))
    (fold_left (drop_task f) (c_spawnq (gcmd cid H)) (fold_left (fun Hh e => drop_req e Hh) (c_eff (gcmd cid H)) (ucmd cid dropped H))).
Proof. reflexivity. Qed.
Lemma drop_fs_S f fs H : drop_fs (S f) fs H =
  fold_left (fun Hh fr => chan_drop_rx (fr_ch fr) Hh) (f_stack fs)
    match f_leaf fs with
    | LReq _ dead _ _ ch _ _ => if dead then H else chan_drop_rx ch H
    | LLeg _ _ _ ch _ _ => chan_drop_rx ch H
    | LHost cid _ _ _ => drop_cmd f cid H
    | LBoth a b _ _ _ | LRace a b _ _ => sub_drop b (sub_drop a H)
    | _ => H end.
Proof. reflexivity. Qed.
(* run_until_settled of an aborted command: `self.tasks.clear(); return` - no task is polled *)
Definition clear_tasks (l : list entry) (H : heap) : heap :=
  fold_left (fun Hh e => match e with Occ t => drop_task (dfuel Hh) Hh t | Vac _ => Hh end) l H.
Lemma rsettle_step F x H : rsettle (step_funs F) x H =
  if was_aborted x H then Some (note B_AbortClear (clear_tasks (c_ent (gcmd x H)) (ucmd x slab_clear H))) else rloop F x H.
Proof. reflexivity. Qed.
Lemma settle_aborted_eq f x H : was_aborted x H = true ->
  settle (S f) x H = Some (note B_AbortClear (clear_tasks (c_ent (gcmd x H)) (ucmd x slab_clear H))).
Proof. intros A. unfold settle. cbn [funs]. rewrite rsettle_step, A. reflexivity. Qed.

(* the part of a wake that does not depend on the fuel *)
Definition wake_own (c s g : nat) (H : heap) : heap :=
  set_woken g (if c_alive (gcmd c H) then ucmd c (fun cm => set_ready (c_ready cm ++ [s]) cm) H else H).
Lemma wake_exec f q H : wake f (WExec q) H = push_xready q H.
Proof. destruct f; reflexivity. Qed.
Lemma wake_cmd f c s g H : wake f (WCmd c s g) H =
  match c_atomic (gcmd c (wake_own c s g H)) with
  | Some w' => match f with 0 => wake_own c s g H | S f' => wake f' w' (ucmd c (set_atomic None) (wake_own c s g H)) end
  | None => note B_AtomicEmpty (wake_own c s g H)
  end.
Proof. destruct f; reflexivity. Qed.

Lemma poll_next_inv F x w H r H' : rpoll_next (step_funs F) x w H = Some (r, H') ->
  exists H1, rsettle F x (ucmd x (set_atomic (Some w)) H) = Some H1 /\
  match r with
  | PNEvent e => exists rest, c_evs (gcmd x H1) = e :: rest /\ H' = ucmd x (set_evs rest) H1
  | PNEffect e => exists rest, c_evs (gcmd x H1) = [] /\ c_eff (gcmd x H1) = e :: rest /\ H' = ucmd x (set_eff rest) H1
  | PNDone | PNPending => c_evs (gcmd x H1) = [] /\ c_eff (gcmd x H1) = [] /\ rsettle F x H1 = Some H'
  end.
Proof.
  cbn [step_funs rpoll_next]. unfold poll_next_body. intros E.
  destruct (rsettle F x _) as [H1|] eqn:E1; [|discriminate]. exists H1. split; [reflexivity|].
  destruct (c_evs (gcmd x H1)) as [|e rest] eqn:EV; [|injection E as <- <-; exists rest; auto].
  destruct (c_eff (gcmd x H1)) as [|e rest] eqn:EF; [|injection E as <- <-; exists rest; auto].
  destruct (rsettle F x H1) as [H2|] eqn:E2; [|discriminate].
  destruct (c_eff (gcmd x H2)); [destruct (c_evs (gcmd x H2)); [destruct (c_len (gcmd x H2) =? 0)|]|]; injection E as <- <-; auto.
Qed.
Lemma run_task_cancelled_inv F cid slot H H' :
  rrun_task (step_funs F) cid slot H = Some (Cancelled, H') ->
  exists t fs' H2, slab_get slot (gcmd cid H) = Some t /\
    rpoll F cid (WCmd cid slot (length (woken H))) (t_fs t)
      (mkH (chans H) (tfl H) (cmds H) (woken H ++ [false]) (xready H) (aborted H) (log H) (hout H)) = Some (Pend fs', H2) /\
    let H3 := ucmd cid (slab_set slot (mkT (t_uid t) fs')) H2 in
    getd false (length (woken H)) (woken H3) = false /\ holds (length (woken H)) H3 = false /\ H' = note B_Evict H3.
Proof.
  cbn [step_funs rrun_task]. unfold run_task_body. intros E.
  destruct (slab_get slot (gcmd cid H)) as [t|]; [|discriminate].
  match type of E with (if ?b then _ else _) = _ => destruct b end; [discriminate|].
  match type of E with context[rpoll F cid ?w ?fs ?H1] => destruct (rpoll F cid w fs H1) as [[[fs'|] H2]|] eqn:E2; try discriminate end.
  exists t, fs', H2. cbv zeta in *.
  destruct (getd false _ _ || holds _ _) eqn:EH; [discriminate|]. apply orb_false_iff in EH as (EW & EHo).
  injection E as <-. repeat split; assumption.
Qed.

(* for the fuel theorems: once one more unit changes nothing, any number does *)
Lemma stable_from {A} (f : nat -> A) n0 : (forall n, n0 <= n -> f (S n) = f n) -> forall k, f (k + n0) = f n0.
Proof. intros St. induction k as [|k IH]; [reflexivity|]. cbn [Nat.add]. rewrite St by lia. exact IH. Qed.
