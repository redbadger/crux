(* The frame principle closed under the ACTUAL primitive updates of a command record instead of under every
   "good" update: [prim] names the dozen shapes of update the runtime performs (queue pushes, slab updates,
   the cell, the clearing done by drop); the two POPS of Stream::poll_next (which only ever take the first element
   off the event / effect queue) are hypotheses of their own.  Relations that say HOW a command's queues and task
   table may change are its instances (the output queues: Fifo.v). *)
From Coq Require Import List Arith Bool Lia.
From Crux Require Import Rt.Lang Rt.Rt Rt.Tables Rt.Frame.
Import ListNotations.

Inductive prim : (cmdst -> cmdst) -> Prop :=
| p_ready_push s : prim (fun cm => set_ready (c_ready cm ++ [s]) cm)
| p_atomic a : prim (set_atomic a)
| p_spawnq_push t : prim (fun cm => set_spawnq (c_spawnq cm ++ [t]) cm)
| p_dropped : prim (fun cm => set_alive false (set_eff [] (set_evs [] (slab_clear (set_spawnq [] (set_ready [] cm))))))
| p_ev_push e : prim (fun cm => set_evs (c_evs cm ++ [e]) cm)
| p_eff_push e : prim (fun cm => set_eff (c_eff cm ++ [e]) cm)
| p_slab_clear : prim slab_clear
| p_spawnq_clear : prim (set_spawnq [])
| p_spawn_one t : prim (spawn_one t)
| p_slab_remove s : prim (slab_remove s)
| p_ready_set l : prim (set_ready l)
| p_slab_set s t : prim (slab_set s t).
Ltac solve_prim := first [ apply p_ready_push | apply p_atomic | apply p_spawnq_push | apply p_dropped | apply p_ev_push | apply p_eff_push
  | apply p_slab_clear | apply p_spawnq_clear | apply p_spawn_one | apply p_slab_remove | apply p_ready_set | apply p_slab_set ].

Lemma prim_good f : prim f -> good f.
Proof. intros P. destruct P; solve_good. Qed.

Section Frame2.
  Variable R : heap -> heap -> Prop.
  Hypothesis R_refl : forall H, R H H.
  Hypothesis R_trans : forall a b c, R a b -> R b c -> R a c.
  Hypothesis R_ucmd : forall c f H, prim f -> R H (ucmd c f H).
  (* taking the first element off a command's event / effect queue (Stream::poll_next hands it to the host) *)
  Hypothesis R_pop_ev : forall c e rest H, c_evs (gcmd c H) = e :: rest -> R H (ucmd c (set_evs rest) H).
  Hypothesis R_pop_eff : forall c e rest H, c_eff (gcmd c H) = e :: rest -> R H (ucmd c (set_eff rest) H).
  Hypothesis R_uch : forall c f H, goodch f -> R H (uch c f H).
  Hypothesis R_utf : forall u f H, goodtf f -> R H (utf u f H).
  Hypothesis R_note : forall n H, R H (note n H).
  Hypothesis R_set_woken : forall g H, R H (set_woken g H).
  Hypothesis R_push_xready : forall q H, R H (push_xready q H).
  Hypothesis R_add_chan : forall c H, R H (mkH (chans H ++ [c]) (tfl H) (cmds H) (woken H) (xready H) (aborted H) (log H) (hout H)).
  Hypothesis R_add_tflag : forall t H, R H (mkH (chans H) (tfl H ++ [t]) (cmds H) (woken H) (xready H) (aborted H) (log H) (hout H)).
  Hypothesis R_add_gen : forall H, R H (mkH (chans H) (tfl H) (cmds H) (woken H ++ [false]) (xready H) (aborted H) (log H) (hout H)).
  Hypothesis R_add_aborted : forall n H, R H (add_aborted n H).
  Hypothesis R_push_hout : forall e H, R H (push_hout e H).
  Hypothesis R_add_cmd : forall c H, R H (mkH (chans H) (tfl H) (cmds H ++ [c]) (woken H) (xready H) (aborted H) (log H) (hout H)).

  Lemma R_chan_send ch v H : R H (snd (chan_send ch v H)).
  Proof using R_refl R_trans R_ucmd R_uch R_note R_set_woken R_push_xready.
    assert (W : forall f w H0, R H0 (wake f w H0)) by (apply R_wake; auto; intros; apply R_ucmd; solve_prim).
    unfold chan_send. destruct (ch_rx (gch ch H)); cbn [snd]; [|apply R_note].
    eapply R_trans; [|unfold wake_cell; match goal with |- R _ (match ?o with _ => _ end) => destruct o end;
                       [eapply R_trans; [|apply W] | apply R_refl]; apply R_uch; solve_goodch].
    apply R_uch; solve_goodch.
  Qed.

  Lemma prim_frame_closed : frame_closed (fun _ => True) (fun _ => True) R.
  Proof.
    constructor; auto; try (intros; apply R_ucmd; solve_prim).
    constructor; auto; [apply R_wake; auto|]; intros; apply R_ucmd; solve_prim.
  Qed.

  Definition spec (F : rtfuns) : Prop :=
    (forall c w fs H r H', rpoll F c w fs H = Some (r, H') -> R H H') /\
    (forall cid w H r H', rpoll_next F cid w H = Some (r, H') -> R H H') /\
    (forall cid H H', rsettle F cid H = Some H' -> R H H') /\
    (forall cid H H', rloop F cid H = Some H' -> R H H') /\
    (forall cid H H', rdrain F cid H = Some H' -> R H H') /\
    (forall cid s H r H', rrun_task F cid s H = Some (r, H') -> R H H').

  Theorem frame_all : forall fuel, spec (funs fuel).
  Proof. exact (closed_spec prim_frame_closed). Qed.

  Lemma frame_settle fuel cid H H' : settle fuel cid H = Some H' -> R H H'.
  Proof. apply (frame_all fuel). Qed.
  Lemma frame_loop fuel cid H H' : settle_loop fuel cid H = Some H' -> R H H'.
  Proof. apply (frame_all fuel). Qed.
  Lemma frame_poll_next fuel cid w H r H' : poll_next fuel cid w H = Some (r, H') -> R H H'.
  Proof. apply (frame_all fuel). Qed.
  Lemma frame_poll fuel c w fs H r H' : poll fuel c w fs H = Some (r, H') -> R H H'.
  Proof. apply (frame_all fuel). Qed.
  Lemma frame_drain fuel cid H H' : drain fuel cid H = Some H' -> R H H'.
  Proof. apply (frame_all fuel). Qed.
  Lemma frame_run_task fuel cid s H r H' : run_task fuel cid s H = Some (r, H') -> R H H'.
  Proof. apply (frame_all fuel). Qed.
End Frame2.
