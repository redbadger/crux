(* The wake chain (C05 "noticed by the outermost host in the same call"): CommandWaker::wake_by_ref
   enqueues the task in its own command, marks the poll's waker as woken and wakes whatever the
   command's AtomicWaker cell holds - the waker of the task that hosts the command - and so on upwards.
   If every host on the path has its waker registered (poll_next registers before it settles), the wake
   reaches the executor's ready queue, at every nesting depth; each step of it queues the woken task in its own
   command, if that is alive. *)
From Coq Require Import List Arith Bool Lia.
From Crux Require Import Rt.Lang Rt.Rt Rt.Tables Rt.Frame.
Import ListNotations.

(* a path of registered wakers from a task waker up to the executor task q; l lists the commands on it.  None occurs
   twice: a wake empties the cell of each command it passes, and the rest of the path is read in the heap after that *)
Inductive chain (H : heap) : waker -> list nat -> nat -> Prop :=
| ch_exec q : chain H (WExec q) [] q
| ch_cmd c s g w' l q :
    c_atomic (gcmd c H) = Some w' -> ~ In c l -> chain H w' l q -> chain H (WCmd c s g) (c :: l) q.

Lemma chain_frame H H' w l q :
  (forall c, In c l -> c_atomic (gcmd c H') = c_atomic (gcmd c H)) -> chain H w l q -> chain H' w l q.
Proof.
  intros Hf Ch. induction Ch as [q|c s g w' l q E Ni Ch IH].
  - constructor.
  - econstructor; [rewrite Hf by (left; reflexivity); exact E | exact Ni | apply IH; intros c' Hc'; apply Hf; right; exact Hc'].
Qed.

Lemma wake_step f c s g H w' :
  c_atomic (gcmd c H) = Some w' ->
  exists H2, wake (S f) (WCmd c s g) H = wake f w' H2 /\ xready H2 = xready H /\
             (forall c', c' <> c -> gcmd c' H2 = gcmd c' H) /\
             (c_alive (gcmd c H) = true -> In s (c_ready (gcmd c H2))) /\
             getd false g (woken H2) = true.
Proof.
  intros E. rewrite wake_cmd.
  assert (Ea : c_atomic (gcmd c (wake_own c s g H)) = Some w').
  { unfold wake_own. rewrite gcmd_set_woken. destruct (c_alive (gcmd c H)); [rewrite gcmd_ucmd_same|]; exact E. }
  rewrite Ea. exists (ucmd c (set_atomic None) (wake_own c s g H)). split; [reflexivity|]. unfold wake_own. split; [|split; [|split]].
  - destruct (c_alive (gcmd c H)); reflexivity.
  - intros c' Hne. rewrite gcmd_ucmd_other, gcmd_set_woken by auto.
    destruct (c_alive (gcmd c H)); [apply gcmd_ucmd_other; auto | reflexivity].
  - intros Al. rewrite gcmd_ucmd_same, gcmd_set_woken, Al, gcmd_ucmd_same.
    cbn [set_atomic set_ready c_ready]. apply in_or_app. right. left. reflexivity.
  - unfold ucmd; simpl. apply getd_updd_same.
Qed.

Lemma chain_inv_nil H w q : chain H w [] q -> w = WExec q.
Proof. intros Ch. inversion Ch; reflexivity. Qed.
Lemma chain_inv_cons H w c l q : chain H w (c :: l) q ->
  exists s g w', w = WCmd c s g /\ c_atomic (gcmd c H) = Some w' /\ ~ In c l /\ chain H w' l q.
Proof. intros Ch. inversion Ch; subst. do 3 eexists. repeat split; eauto. Qed.

Theorem wake_reaches_executor : forall l H w q fuel,
  chain H w l q -> length l < fuel ->
  xready (wake fuel w H) = xready H ++ [q].
Proof.
  induction l as [|c l IH]; intros H w q fuel Ch Lf.
  - apply chain_inv_nil in Ch. subst w. destruct fuel; [simpl in Lf; lia|]. reflexivity.
  - apply chain_inv_cons in Ch as (s & g & w' & -> & E & Ni & Ch).
    destruct fuel as [|f]; [simpl in Lf; lia|].
    destruct (wake_step f c s g H w' E) as (H2 & Ew & Ex & Eo & _ & _).
    rewrite Ew. rewrite <- Ex. apply IH; [|simpl in Lf; lia].
    eapply chain_frame; [|exact Ch]. intros c' Hc'. rewrite Eo; [reflexivity|]. intros ->. contradiction.
Qed.

Theorem wake_queues_task : forall H c s g w' f,
  c_atomic (gcmd c H) = Some w' -> c_alive (gcmd c H) = true ->
  exists H2, wake (S f) (WCmd c s g) H = wake f w' H2 /\ In s (c_ready (gcmd c H2)) /\ getd false g (woken H2) = true.
Proof.
  intros H c s g w' f E Al. destruct (wake_step f c s g H w' E) as (H2 & Ew & _ & _ & Er & Ewk).
  exists H2. repeat split; auto.
Qed.
