(* What the trace predicates of Check.v say about one step, whatever host produced the trace. *)
From Coq Require Import List Arith Bool.
From Crux Require Import Rt.Lang Rt.Rt Rt.Host Rt.Check.
Import ListNotations.

Lemma list_eqb_refl {A} (eqb : A -> A -> bool) : (forall x, eqb x x = true) -> forall l, list_eqb eqb l l = true.
Proof. intros H. induction l as [|x l IH]; cbn; [reflexivity|]. rewrite H. exact IH. Qed.
Lemma event_eqb_refl e : event_eqb e e = true.
Proof. unfold event_eqb. rewrite !Nat.eqb_refl. apply list_eqb_refl, Nat.eqb_refl. Qed.
Lemma is_prefix_app a b : is_prefix a (a ++ b) = true.
Proof. induction a as [|x a IH]; cbn; [reflexivity|]. rewrite event_eqb_refl. exact IH. Qed.
Lemma is_prefix_refl a : is_prefix a a = true.
Proof. rewrite <- (app_nil_r a) at 2. apply is_prefix_app. Qed.
Lemma skipn_app_len {A} (a l : list A) : skipn (length a) (a ++ l) = l.
Proof. induction a; cbn; auto. Qed.

Lemma C03_log_skip a acts o t plog : (forall c effs lg, o <> OCall c effs lg) ->
  C03_log (a :: acts) (o :: t) plog = C03_log acts t plog.
Proof. intros H. destruct o; try reflexivity. destruct (H _ _ _ eq_refl). Qed.

Lemma C03_log_call a acts c effs t plog l :
  match a with AEvent tg v => exists l', l = mkEv tg v [] :: l' | _ => True end ->
  C03_log (a :: acts) (OCall c effs (plog ++ l) :: t) plog = C03_log acts t (plog ++ l).
Proof.
  intros H. cbn [C03_log]. rewrite is_prefix_app. destruct a; try reflexivity.
  destruct H as [l' ->]. rewrite skipn_app_len, event_eqb_refl. reflexivity.
Qed.

Definition is_probe (a : action) : bool :=
  match a with AEvent tg v => Nat.eqb tg 99 && Nat.eqb v 0 | _ => false end.

(* the pattern [AEvent 99 0] is a match a hundred constructors deep: it is taken apart here and nowhere else *)
Lemma probe_match {A} (a : action) (x y : A) : match a with AEvent 99 0 => x | _ => y end = if is_probe a then x else y.
Proof.
  destruct a as [| | | | | |tg v| |]; try reflexivity. unfold is_probe.
  do 99 (destruct tg as [|tg]; [reflexivity|]). destruct tg; [destruct v|]; reflexivity.
Qed.
Lemma is_probe_true a : is_probe a = true -> a = AEvent 99 0.
Proof.
  destruct a as [| | | | | |tg v| |]; try discriminate. cbn. intros E. apply andb_prop in E as [E1 E2].
  apply Nat.eqb_eq in E1, E2. subst. reflexivity.
Qed.

Lemma C01_probes_call a acts effs lg t prev :
  C01_probes (a :: acts) (OCall 0 effs lg :: t) prev =
  match (if is_probe a then prev else None) with
  | Some plog => match effs with [] => list_eqb event_eqb lg (plog ++ [mkEv 99 0 []]) | _ :: _ => false end
  | None => true
  end && C01_probes acts t (Some lg).
Proof.
  cbn [C01_probes]. f_equal. rewrite probe_match. destruct (is_probe a); reflexivity.
Qed.
