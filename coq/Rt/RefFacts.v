(* Lemmas of Ref.v itself.  The residual commands nest through a list ([RPar]), so structural induction needs a
   principle of its own ([rc_ind']); the anonymous inner loop of [run] is named here ([run_list]), with the
   equations of [run] one constructor at a time. *)
From Coq Require Import List Arith Bool Lia.
From Crux Require Import Rt.Lang Rt.Rt Rt.Ref.
Import ListNotations.

Lemma rc_ind' (P : rc -> Prop) :
  (forall b, P (RBag b)) -> (forall a b, P a -> P (RSeq a b)) -> (forall l, Forall P l -> P (RPar l)) ->
  (forall k a, P a -> P (RMapEff k a)) -> (forall k a, P a -> P (RMapEv k a)) -> forall c, P c.
Proof.
  intros HB HS HP HE HV. fix IH 1. intros [b|a b|l|k a|k a]; [apply HB | apply HS, IH | | apply HE, IH | apply HV, IH].
  apply HP. induction l; constructor; [apply IH | assumption].
Qed.

Lemma list_sum_map_le {A} (f g : A -> nat) l : Forall (fun x => f x <= g x) l -> list_sum (map f l) <= list_sum (map g l).
Proof. unfold list_sum. induction 1; cbn; lia. Qed.
Lemma list_sum_map_0 {A} (f : A -> nat) l : list_sum (map f l) = 0 -> Forall (fun x => f x = 0) l.
Proof. unfold list_sum. induction l as [|x l IH]; cbn; intros E; constructor; [lia | apply IH; lia]. Qed.
Lemma map_id_on {A} (f : A -> A) l : Forall (fun x => f x = x) l -> map f l = l.
Proof. induction 1 as [|x l E _ IH]; cbn; [reflexivity|]. rewrite E, IH. reflexivity. Qed.

Fixpoint run_list (f : nat) (en : env) (l : list rc) (n : nat) : option (list rc * nat * routs) :=
  match l with
  | [] => Some ([], n, ro0)
  | x :: r => match run f en x n with
              | None => None
              | Some (x', n1, o1) =>
                match run_list f en r n1 with Some (r', n2, o2) => Some (x' :: r', n2, ro_app o1 o2) | None => None end
              end
  end.

Lemma run_bag_eq f en b n :
  run (S f) en (RBag b) n = match run_bag SF b n ro0 with Some (b', n', o) => Some (RBag b', n', o) | None => None end.
Proof. reflexivity. Qed.
Lemma run_seq_eq f en a b n :
  run (S f) en (RSeq a b) n =
  match run f en a n with
  | None => None
  | Some (a', n1, o1) =>
    if rdone a' then match run f en (start en b) n1 with Some (b', n2, o2) => Some (b', n2, ro_app o1 o2) | None => None end
    else Some (RSeq a' b, n1, o1)
  end.
Proof. reflexivity. Qed.
Lemma run_par_eq f en l n :
  run (S f) en (RPar l) n = match run_list f en l n with Some (l', n', o) => Some (RPar l', n', o) | None => None end.
Proof.
  cbn [run]. match goal with |- match ?go l n with _ => _ end = _ => assert (G : forall l n, go l n = run_list f en l n) end.
  { clear. induction l as [|x l IH]; intros n; cbn; [reflexivity|].
    destruct (run f en x n) as [[[x' n1] o1]|]; [rewrite IH|]; reflexivity. }
  rewrite G. reflexivity.
Qed.
Lemma run_mapeff_eq f en k a n :
  run (S f) en (RMapEff k a) n = match run f en a n with Some (a', n', o) => Some (RMapEff k a', n', ro_map_eff k o) | None => None end.
Proof. reflexivity. Qed.
Lemma run_mapev_eq f en k a n :
  run (S f) en (RMapEv k a) n = match run f en a n with Some (a', n', o) => Some (RMapEv k a', n', ro_map_ev k o) | None => None end.
Proof. reflexivity. Qed.

Lemma run_list_ind f en (P : rc -> nat -> rc -> nat -> routs -> Prop) (Q : list rc -> nat -> list rc -> nat -> routs -> Prop) :
  (forall x n x' n' o, run f en x n = Some (x', n', o) -> P x n x' n' o) ->
  (forall n, Q [] n [] n ro0) ->
  (forall x l n x' n1 o1 l' n2 o2, P x n x' n1 o1 -> Q l n1 l' n2 o2 -> Q (x :: l) n (x' :: l') n2 (ro_app o1 o2)) ->
  forall l n l' n' o, run_list f en l n = Some (l', n', o) -> Q l n l' n' o.
Proof.
  intros HP Q0 QS. induction l as [|x l IH]; intros n l' n' o E; cbn [run_list] in E.
  - inversion E; subst. apply Q0.
  - destruct (run f en x n) as [[[x' n1] o1]|] eqn:EX; [|discriminate].
    destruct (run_list f en l n1) as [[[r' n2] o2]|] eqn:EL; [|discriminate].
    inversion E; subst. exact (QS _ _ _ _ _ _ _ _ _ (HP _ _ _ _ _ EX) (IH _ _ _ _ EL)).
Qed.

Lemma run_done f en n : run (S f) en (start en c_done) n = Some (RBag (mkRB [] 1 [0]), n, ro0).
Proof. reflexivity. Qed.
