(* The schedules and wrappers the laws of the reference semantics (RefLaws.v, Properties/C04.v) speak of. *)
From Coq Require Import List Arith Bool.
From Crux Require Import Rt.Lang Rt.Rt Rt.Ref.
Import ListNotations.

Definition not_spawn (a : action) : bool := match a with ASpawn _ => false | _ => true end.
Definition no_spawn (acts : list action) : bool := forallb not_spawn acts.

Fixpoint wrapn (k : nat) (c : cmd) : cmd := match k with 0 => c | S k' => CAll [CIdEv (CIdEff (wrapn k' c))] end.
