(* The trace predicate C02_ok holds of the model's own trace, for every case. *)
From Coq Require Import List Arith Bool ZArith NArith Lia.
From Crux Require Import Base.Res Bridge.Slab Bridge.Bridge Bridge.Resolve Bridge.Arity.
Import ListNotations.

Lemma ev_eqb_refl e : ev_eqb e e = true.
Proof. unfold ev_eqb. rewrite Nat.eqb_refl, N.eqb_refl. reflexivity. Qed.

Lemma evs_eqb_refl l : evs_eqb l l = true.
Proof. induction l as [|x t IH]; simpl; auto. rewrite ev_eqb_refl, IH. reflexivity. Qed.

(* 9 is the code kept for panics *)
Lemma step_code h a : res_code (o_res (snd (step h a))) <> 9%Z.
Proof.
  destruct a as [owner k limit legacy|rid v|rid body|rid| | |]; simpl; try discriminate.
  - destruct k; simpl; discriminate.
  - destruct (nth_error (h_reqs h) rid) as [q|]; simpl; [|discriminate].
    destruct (q_res q) as [|c|c]; simpl; try discriminate;
      destruct (chan_send (h_chans h) c v) as [chs1 [|]]; simpl; discriminate.
  - destruct (nth_error (h_reqs h) rid) as [q|]; simpl; [|discriminate].
    destruct (q_res q) as [|c|c], body as [v|]; simpl; try discriminate;
      destruct (chan_send (h_chans h) c v) as [chs1 [|]]; simpl; discriminate.
  - destruct (nth_error (h_reqs h) rid); simpl; discriminate.
  - destruct (h_aborted h); [simpl; discriminate|]. destruct (poll_chans (h_chans h)); simpl; discriminate.
Qed.

Lemma model_step_code auto lg h st : snd (fst (model_step auto lg h st)) <> 9%Z.
Proof.
  unfold model_step. destruct (primary auto (s_act st)) as [a|]; [|cbn; discriminate].
  pose proof (step_code h a) as H. destruct (step h a) as [h1 o]. cbn [fst snd] in H.
  destruct (auto && follows_with_poll (s_act st) && Z.eqb (res_code (o_res o)) 0).
  - destruct (step h1 APoll) as [h2 o2]. cbn [fst snd]. exact H.
  - cbn [fst snd]. exact H.
Qed.

Lemma model_step_ignores_obs auto lg h act code evs new code' evs' :
  model_step auto lg h (mkStep act code evs new) = model_step auto lg h (mkStep act code' evs' new).
Proof. reflexivity. Qed.

Lemma run_model_trace_ok auto lg : forall steps h n ex iex iok,
  snd (fst (fst (run_case auto lg h n (model_trace auto lg h steps) (ex, true, iex, iok)))) = true.
Proof.
  induction steps as [|st rest IH]; intros h n ex iex iok; simpl; [reflexivity|].
  pose proof (model_step_code auto lg h st) as Hc.
  destruct (model_step auto lg h st) as [[h1 code] evs] eqn:E. simpl in Hc.
  assert (E' : model_step auto lg h (mkStep (s_act st) code evs (s_new st)) = (h1, code, evs)).
  { rewrite <- E. destruct st. apply model_step_ignores_obs. }
  simpl. rewrite E'.
  assert (Hok : step_ok code evs (mkStep (s_act st) code evs (s_new st)) = true).
  { unfold step_ok. simpl. rewrite eqb_reflx, evs_eqb_refl, andb_true_r. simpl.
    apply negb_true_iff. apply Z.eqb_neq. exact Hc. }
  rewrite Hok. simpl. apply IH.
Qed.
