(* What the two models of ResolveSerialized::resolve (Bridge.resume, abstract core; Resolve.sresolve_step, concrete
   channels) answer to a response, as one function; "the consumer is alive" is core_call's bool in the one, the
   channel's receiver in the other.  That both do: C02_models_agree_bridge, C02_models_agree_heap. *)
From Coq Require Import List Arith Bool ZArith NArith.
From Crux Require Import Base.Res Bridge.Slab Bridge.Bridge Bridge.Resolve.
Import ListNotations.

Definition response_code (k : rkind) (decodable : bool) (consumer_alive : bool) : res unit :=
  match k with
  | KNever => Err E_Never
  | KOnce => if decodable then Ok tt else Err E_DeserializeOutput
  | KMany => if decodable then (if consumer_alive then Ok tt else Err E_FinishedMany) else Err E_DeserializeOutput
  end.

Definition closure_for (k : rkind) (c : nat) : resolve :=
  match k with KNever => RNever | KOnce => ROnce c | KMany => RMany c end.
