(* Run-level statements for C09: the whole bridge run is, call by call, the image of the typed run;
   decoded with any lawful codec; routing of a response to the request issued under its id. *)
From Coq Require Import List Arith Bool ZArith NArith Lia.
From Crux Require Import Base.Res Bridge.Slab Bridge.SlabProofs Bridge.Bridge Bridge.BridgeProofs.
Import ListNotations.

Section ImageProofs.
Variables (cstate event op value view handle B : Type).
Notation eff := (eff op handle).
Notation rentry := (rentry op handle).
Notation bstate := (bstate cstate op handle).
Notation tstate := (tstate cstate handle).
Notation bytes := (list B).
Notation call := (call cstate op view handle B).

Variable core_event : cstate -> event -> cstate * list eff.
Variable core_process : cstate -> cstate * list eff.
Variable core_call : cstate -> handle -> value -> cstate * bool.
Variable core_drop : cstate -> handle -> cstate.
Variable core_view : cstate -> view.
Variable dec_event : bytes -> option (event * bytes).
Variable dec_out : op -> bytes -> option (value * bytes).
Variable enc_reqs : list (nat * op) -> bytes.
Variable enc_view : view -> bytes.
Variable dec_reqs : bytes -> option (list (nat * op) * bytes).
Variable dec_view : bytes -> option (view * bytes).
Hypothesis reqs_law : forall l rest, dec_reqs (enc_reqs l ++ rest) = Some (l, rest).
Hypothesis view_law : forall v rest, dec_view (enc_view v ++ rest) = Some (v, rest).

Notation typed_opt_step := (typed_opt_step cstate event op value view handle core_event core_process core_call core_drop core_view).
Notation bridge_step := (bridge_step cstate event op value view handle B core_event core_process core_call core_drop core_view dec_event dec_out enc_reqs enc_view).
Notation translate := (translate cstate event op value handle B dec_event dec_out).
Notation twin_run := (twin_run cstate event op value view handle B core_event core_process core_call core_drop core_view dec_event dec_out enc_reqs enc_view).
Notation image := (image cstate op view handle B enc_reqs enc_view).
Notation R := (R cstate op handle).

Definition call_image (c : call) : Prop :=
  image (c_before _ _ _ _ _ c) (c_after _ _ _ _ _ c) (c_in _ _ _ _ _ c) (c_out _ _ _ _ _ c)
        (c_err _ _ _ _ _ c) (c_typed _ _ _ _ _ c).

Lemma twin_run_cons b t i rest :
  twin_run b t (i :: rest) =
  mkCall _ _ _ _ _ i (snd (bridge_step b i)) (snd (translate b i)) (snd (typed_opt_step t (fst (translate b i))))
         b (fst (bridge_step b i))
  :: twin_run (fst (bridge_step b i)) (fst (typed_opt_step t (fst (translate b i)))) rest.
Proof. simpl. destruct (translate b i), (bridge_step b i), (typed_opt_step t _). reflexivity. Qed.

Theorem twin_image : forall is b t, R b t ->
  (forall c, In c (twin_run b t is) -> is_panic (c_out _ _ _ _ _ c) = false) ->
  Forall call_image (twin_run b t is).
Proof.
  induction is as [|i rest IH]; intros b t HR Hnp; [constructor|]. rewrite twin_run_cons in *.
  pose proof (Hnp _ (or_introl eq_refl)) as Hr.
  destruct (step_image _ _ _ _ _ _ _ core_event core_process core_call core_drop core_view
              dec_event dec_out enc_reqs enc_view b t i _ _ HR (surjective_pairing _) Hr) as [HR' Him].
  constructor; [exact Him|]. apply IH; [exact HR'|]. intros c Hc. apply Hnp. right. exact Hc.
Qed.

Definition decoded_image (c : call) : Prop :=
  match c_err _ _ _ _ _ c with
  | Some e => c_out _ _ _ _ _ c = Err e
  | None =>
      match c_typed _ _ _ _ _ c with
      | TEffects effs =>
          exists bs ids, c_out _ _ _ _ _ c = Ok bs /\
            dec_reqs bs = Some (combine ids (map e_op effs), []) /\
            length ids = length effs /\ NoDup ids /\
            (forall j id ef, nth_error ids j = Some id -> nth_error effs j = Some ef ->
               slab_get (b_reg (c_after _ _ _ _ _ c)) id =
                 Some (mkR (e_kind ef) (e_h ef) (e_op ef) (b_seq (c_before _ _ _ _ _ c) + j))) /\
            (forall id, In id ids -> slab_get (b_reg (c_before _ _ _ _ _ c)) id = None \/
                                     exists data, c_in _ _ _ _ _ c = BResp id data)
      | TErr e => c_out _ _ _ _ _ c = Err e
      | TViewOut v => exists bs, c_out _ _ _ _ _ c = Ok bs /\ dec_view bs = Some (v, [])
      | TUnit => False
      end
  end.

Lemma call_image_decoded c : call_image c -> decoded_image c.
Proof.
  unfold call_image, decoded_image, BridgeProofs.image.
  destruct (c_err _ _ _ _ _ c); auto.
  destruct (c_typed _ _ _ _ _ c) as [effs|e|v|]; auto.
  - intros (ids & Hlen & Hout & Hreg & Hfresh).
    exists (enc_reqs (combine ids (map e_op effs))), ids.
    split; [exact Hout|]. split.
    + rewrite <- (app_nil_r (enc_reqs _)). apply reqs_law.
    + split; [exact Hlen|]. split; [|exact (conj Hreg Hfresh)].
      (* two positions holding the same id name entries with the same arrival number *)
      apply NoDup_nth_error. intros i j Hi E. rewrite Hlen in Hi.
      destruct (nth_error ids i) as [id|] eqn:Ei; [|apply nth_error_None in Ei; lia].
      destruct (nth_error effs i) as [ei|] eqn:Ee; [|apply nth_error_None in Ee; lia].
      assert (Hj : j < length effs) by (rewrite <- Hlen; eapply nth_error_lt; eauto).
      destruct (nth_error effs j) as [ej|] eqn:Ej; [|apply nth_error_None in Ej; lia].
      pose proof (Hreg _ _ _ Ei Ee) as H1. rewrite (Hreg _ _ _ (eq_sym E) Ej) in H1. inversion H1. lia.
  - intros Hout. exists (enc_view v). split; [exact Hout|].
    rewrite <- (app_nil_r (enc_view v)). apply view_law.
Qed.

Theorem twin_decoded_image : forall is b t, R b t ->
  (forall c, In c (twin_run b t is) -> is_panic (c_out _ _ _ _ _ c) = false) ->
  Forall decoded_image (twin_run b t is).
Proof.
  intros is b t HR Hnp. eapply Forall_impl; [|apply twin_image; eauto].
  intros c. apply call_image_decoded.
Qed.

Lemma R_init c : R (bridge_init cstate op handle c) (typed_init cstate handle c).
Proof.
  split; [reflexivity|]. split; [reflexivity|]. split; [apply wf_empty|]. split.
  - intros id e H. destruct id; discriminate.
  - intros id1 id2 e1 e2 H. destruct id1; discriminate.
Qed.

Theorem routes_core (b : bstate) id e v rest data b' r :
  wf (b_reg b) -> slab_get (b_reg b) id = Some e -> r_kind e <> KNever ->
  dec_out (r_op e) data = Some (v, rest) ->
  bridge_step b (BResp id data) = (b', r) -> is_panic r = false ->
  let c1 := fst (core_call (b_core b) (r_h e) v) in
  let ok := snd (core_call (b_core b) (r_h e) v) in
  match r_kind e, ok with
  | KMany, false => b_core b' = c1 /\ r = Err E_FinishedMany
  | _, _ => b_core b' = fst (core_process c1) /\ is_ok r = true
  end.
Proof.
  intros Hwf Hg Hk Hd Hs Hnp. cbv zeta. simpl in Hs.
  pose proof (resume_spec _ _ _ _ _ core_call core_drop dec_out b id data Hwf) as Hres.
  rewrite Hg in Hres. unfold answer in Hres. rewrite Hd in Hres.
  assert (Hfin : forall b1 c effs, wf (b_reg b1) -> finish cstate op handle B enc_reqs b1 c effs = (b', r) ->
                   b_core b' = c /\ is_ok r = true).
  { intros b1 c effs Hwf1 Hf.
    destruct (finish_cases _ _ _ _ enc_reqs b1 c effs Hwf1) as [[_ E]|(reg & seq & log & reqs & _ & E)];
      rewrite E in Hf; inversion Hf; subst; [discriminate|auto]. }
  destruct (r_kind e) eqn:Ek; [congruence| |].
  - destruct Hres as (reg' & E & _ & _ & _ & Hwf' & _). rewrite E in Hs. simpl in Hs.
    destruct (core_process (fst (core_call (b_core b) (r_h e) v))) as [c2 effs]. apply Hfin in Hs; [|exact Hwf'].
    destruct (snd (core_call (b_core b) (r_h e) v)); exact Hs.
  - rewrite Hres in Hs. simpl in *. destruct (snd (core_call (b_core b) (r_h e) v)); simpl in Hs.
    + destruct (core_process (fst (core_call (b_core b) (r_h e) v))) as [c2 effs]. apply Hfin in Hs; [exact Hs|exact Hwf].
    + inversion Hs; subst. auto.
Qed.

End ImageProofs.
