(* C13, registry part: what the registry forgets and what it keeps, for every app and every history. *)
From Coq Require Import List Arith Bool ZArith NArith Lia.
From Crux Require Import Base.Res Bridge.Slab Bridge.SlabProofs Bridge.Bridge Bridge.BridgeProofs Bridge.RegistryProofs.
Import ListNotations.

Section SlabReuse.
Context {V : Type}.

Lemma count_occ_le_length (l : list (entry V)) : count_occ_entries l <= length l.
Proof. induction l as [|[v|n] t IH]; simpl; lia. Qed.

Lemma count_occ_full (l : list (entry V)) : count_occ_entries l = length l -> forall k nx, nth_error l k <> Some (Vacant nx).
Proof.
  induction l as [|[v|n] t IH]; simpl; intros H k nx.
  - destruct k; discriminate.
  - destruct k; simpl; [discriminate|]. apply IH. lia.
  - pose proof (count_occ_le_length t). lia.
Qed.

End SlabReuse.

Section Release.
Variables (cstate event op value view handle B : Type).
Notation eff := (eff op handle).
Notation rentry := (rentry op handle).
Notation bstate := (bstate cstate op handle).
Notation tstate := (tstate cstate handle).
Notation bytes := (list B).

Variable core_event : cstate -> event -> cstate * list eff.
Variable core_process : cstate -> cstate * list eff.
Variable core_call : cstate -> handle -> value -> cstate * bool.
Variable core_drop : cstate -> handle -> cstate.
Variable core_view : cstate -> view.
Variable dec_event : bytes -> option (event * bytes).
Variable dec_out : op -> bytes -> option (value * bytes).
Variable enc_reqs : list (nat * op) -> bytes.
Variable enc_view : view -> bytes.

Notation bridge_step := (bridge_step cstate event op value view handle B core_event core_process core_call core_drop core_view dec_event dec_out enc_reqs enc_view).
Notation resume := (resume cstate op value handle B core_call core_drop dec_out).
Notation finish := (finish cstate op handle B enc_reqs).
Notation bridge_run := (bridge_run cstate event op value view handle B core_event core_process core_call core_drop core_view dec_event dec_out enc_reqs enc_view).
Notation BInv := (BInv cstate op handle).
Notation R := (R cstate op handle).

Lemma finish_mono (b : bstate) c effs : wf (b_reg b) ->
  forall id e, slab_get (b_reg b) id = Some e -> slab_get (b_reg (fst (finish b c effs))) id = Some e.
Proof.
  intros Hwf id e Hg.
  destruct (finish_cases _ _ _ _ enc_reqs b c effs Hwf) as [[_ E]|(reg & seq & log & reqs & E & E')]; [rewrite E; exact Hg|].
  rewrite E'. simpl. eapply register_all_entries; eauto.
Qed.

(* the registry never forgets a stream, whether a response to it is delivered, rejected with FinishedMany or
   undecodable; any other entry survives every call except a response addressed to it *)
Theorem entry_kept (b : bstate) i b' r id e :
  BInv b -> bridge_step b i = (b', r) -> slab_get (b_reg b) id = Some e ->
  r_kind e = KMany \/ (forall data, i <> BResp id data) ->
  BInv b' /\ slab_get (b_reg b') id = Some e.
Proof.
  intros HB Hs Hg Hkeep. revert Hs.
  apply bridge_step_inv with (P := fun b0 => BInv b0 /\ slab_get (b_reg b0) id = Some e); [auto| |].
  - intros id' data b1 r1 -> Er.
    destruct (resume_inv _ _ _ _ _ core_call core_drop dec_out _ _ _ _ _ HB Er) as (HB1 & _ & Hk & _).
    split; [exact HB1|]. apply Hk; [exact Hg|]. destruct Hkeep as [Hm|Hne]; [auto|].
    left. intros ->. exact (Hne data eq_refl).
  - intros b1 c effs [HB1 Hg1]. split; [apply finish_inv; exact HB1|apply finish_mono; [apply HB1|exact Hg1]].
Qed.

(* ... for ever, or until the shell (wrongly) responds to a notification *)
Theorem entry_kept_run is (b : bstate) id e :
  BInv b -> slab_get (b_reg b) id = Some e ->
  r_kind e = KMany \/ (forall data, ~ In (BResp id data) is) ->
  slab_get (b_reg (snd (bridge_run b is))) id = Some e.
Proof.
  intros HB Hg Hkeep.
  apply (bridge_run_invariant _ _ _ _ _ _ _ core_event core_process core_call core_drop core_view dec_event dec_out enc_reqs enc_view
           (fun i => r_kind e = KMany \/ forall data, i <> BResp id data)
           (fun b0 => BInv b0 /\ slab_get (b_reg b0) id = Some e)); auto.
  - intros b0 i Hi [HB0 Hg0]. eapply entry_kept; eauto using surjective_pairing.
  - intros i Hin. destruct Hkeep as [Hm|Hno]; [auto|]. right. intros data ->. exact (Hno data Hin).
Qed.

(* any response to a one-shot's id, delivered or undecodable, releases its entry; the id may be reissued in
   this very call *)
Theorem once_entry_released (b : bstate) id data b' r e :
  wf (b_reg b) -> slab_get (b_reg b) id = Some e -> r_kind e = KOnce ->
  bridge_step b (BResp id data) = (b', r) -> is_panic r = false ->
  slab_get (b_reg b') id = None \/ exists e', slab_get (b_reg b') id = Some e' /\ b_seq b <= r_seq e'.
Proof.
  intros Hwf Hg Hk Hs Hnp. simpl in Hs.
  pose proof (resume_spec _ _ _ _ _ core_call core_drop dec_out b id data Hwf) as Hres. rewrite Hg, Hk in Hres.
  destruct Hres as (reg1 & E & Hnone & _ & _ & Hwf1 & _). rewrite E in Hs.
  destruct (answer _ _ _ _ _ core_call core_drop dec_out b e data) as [c1 r1]. cbn [fst snd] in Hs.
  set (b1 := mkB c1 reg1 (b_seq b) (b_log b ++ [Forget (r_seq e) id])) in *.
  destruct r1; try (inversion Hs; subst; left; exact Hnone).
  destruct (core_process (b_core b1)) as [c effs].
  destruct (finish_cases _ _ _ _ enc_reqs b1 c effs Hwf1) as [[_ Ef]|(reg & seq & log & reqs & E2 & Ef)];
    rewrite Ef in Hs; inversion Hs; subst; [left; exact Hnone|]. simpl in *.
  destruct (slab_get reg id) as [e'|] eqn:Ge; [right|left; reflexivity]. exists e'. split; [reflexivity|].
  (* the entry now under id was registered by this call *)
  destruct (register_all_entries _ _ _ _ _ _ _ _ _ _ Hwf1 E2) as (_ & _ & Hnew).
  destruct (Hnew id e' Ge) as [Hold|Hle]; [congruence|exact Hle].
Qed.

Definition resolvable_entries (reg : slab rentry) : list (nat * rentry) :=
  filter (fun p => negb (rkind_eqb (r_kind (snd p)) KNever)) (slab_iter reg).

Definition held_resolvable (held : list (option (rkind * handle))) : list nat :=
  filter (fun s => match nth_error held s with Some (Some (k, _)) => negb (rkind_eqb k KNever) | _ => false end)
         (seq 0 (length held)).

(* each registered one-shot or stream entry belongs to a distinct request the typed shell still holds unused *)
Theorem registry_bound (b : bstate) (t : tstate) : R b t ->
  length (resolvable_entries (b_reg b)) <= length (held_resolvable (t_held t)).
Proof.
  intros (_ & _ & (Hwf & Hheld & Hinj)).
  rewrite <- (map_length (fun p : nat * rentry => r_seq (snd p)) (resolvable_entries (b_reg b))).
  apply NoDup_incl_length.
  - (* distinct entries have distinct arrival numbers *)
    unfold resolvable_entries. apply NoDup_map_filter, NoDup_map_inj_on; [|apply slab_iter_nodup].
    intros [k1 v1] [k2 v2] H1 H2 Hs. apply slab_iter_in in H1, H2. simpl in Hs.
    assert (k1 = k2) by (eapply Hinj; eauto). subst k2. congruence.
  - intros s Hs. apply in_map_iff in Hs as ([k v] & <- & Hp). unfold resolvable_entries in Hp.
    apply filter_In in Hp as [Hp Hk]. apply slab_iter_in in Hp. simpl in *.
    pose proof (Hheld _ _ Hp) as Hh. unfold held_resolvable. apply filter_In. split.
    + apply in_seq. split; [lia|]. simpl. eapply nth_error_lt; eauto.
    + rewrite Hh. exact Hk.
Qed.

End Release.
