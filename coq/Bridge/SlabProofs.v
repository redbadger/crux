(* Free-list invariant of the slab model and what insert / set / remove do to lookups. *)
From Coq Require Import List Arith Bool Lia.
From Crux Require Import Base.Res Bridge.Slab.
From Crux Require Export Bridge.ListFacts.
Import ListNotations.

Section SlabProofs.
Context {V : Type}.
Notation entry := (entry V).
Notation slab := (slab V).

(* the [Vacant] links from [k] visit [fl] in order and end at [length es], the [next] of a full slab *)
Inductive chain (es : list entry) : nat -> list nat -> Prop :=
| chain_end : chain es (length es) []
| chain_cons k nx fl : nth_error es k = Some (Vacant nx) -> chain es nx fl -> chain es k (k :: fl).

(* The free list visits no slot twice, so its tail is still a chain once the head slot is overwritten
   (chain_upd_notin); it misses no vacant slot, so an empty free list means every slot is occupied (wf_full). *)
Definition wf (s : slab) : Prop :=
  exists fl, chain (entries s) (next s) fl /\ NoDup fl /\
             (forall k nx, nth_error (entries s) k = Some (Vacant nx) -> In k fl) /\
             len s = count_occ_entries (entries s).

Lemma chain_in_vacant es k fl j : chain es k fl -> In j fl -> exists nx, nth_error es j = Some (Vacant nx).
Proof.
  induction 1 as [|k nx fl Hk Hc IH]; simpl; [tauto|].
  intros [->|Hin]; eauto.
Qed.

Lemma chain_at_len es fl : chain es (length es) fl -> fl = [].
Proof.
  inversion 1 as [|k nx fl' Hk Hc]; auto; subst.
  apply nth_error_lt in Hk. lia.
Qed.

Lemma chain_head es k fl : chain es k fl -> k = length es \/ exists nx fl', fl = k :: fl' /\ nth_error es k = Some (Vacant nx) /\ chain es nx fl'.
Proof. inversion 1; subst; eauto 6. Qed.

Lemma chain_upd_notin es k fl j x :
  chain es k fl -> ~ In j fl -> chain (upd es j x) k fl.
Proof.
  induction 1 as [|k nx fl Hk Hc IH]; intros Hn.
  - rewrite <- (upd_length es j x). constructor.
  - simpl in Hn. econstructor.
    + rewrite nth_error_upd_other; eauto.
    + apply IH. tauto.
Qed.

Lemma count_occ_app (l1 l2 : list entry) : count_occ_entries (l1 ++ l2) = count_occ_entries l1 + count_occ_entries l2.
Proof. induction l1 as [|[v|n] t IH]; simpl; auto. Qed.

Definition occ1 (e : entry) : nat := match e with Occupied _ => 1 | Vacant _ => 0 end.

Lemma count_occ_upd (l : list entry) k e e' : nth_error l k = Some e ->
  count_occ_entries (upd l k e') + occ1 e = count_occ_entries l + occ1 e'.
Proof.
  revert k; induction l as [|h t IH]; intros [|k] H; simpl in *; try discriminate.
  - inversion H; subst. destruct e, e'; simpl; lia.
  - specialize (IH _ H). destruct h; simpl; lia.
Qed.

Lemma count_occ_no_vacant (l : list entry) :
  (forall k nx, nth_error l k <> Some (Vacant nx)) -> count_occ_entries l = length l.
Proof.
  induction l as [|[v|n] t IH]; simpl; intros H; auto.
  - f_equal. apply IH. intros k nx. exact (H (S k) nx).
  - elim (H 0 n). reflexivity.
Qed.

Lemma wf_empty : wf slab_empty.
Proof.
  exists []. simpl. split; [exact (chain_end [])|]. split; [constructor|]. split; [|reflexivity].
  intros [|k] nx H; discriminate.
Qed.

Lemma get_lt (s : slab) k v : slab_get s k = Some v -> k < length (entries s).
Proof.
  unfold slab_get. destruct (nth_error (entries s) k) as [[?|?]|] eqn:E; try discriminate.
  intros _. eapply nth_error_lt; eauto.
Qed.

Lemma get_occ (s : slab) k v : slab_get s k = Some v <-> nth_error (entries s) k = Some (Occupied v).
Proof.
  unfold slab_get. destruct (nth_error (entries s) k) as [[?|?]|]; split; intros H; inversion H; auto.
Qed.

Definition inserted (s : slab) (k : nat) (v : V) (s' : slab) : Prop :=
  slab_get s k = None /\ slab_get s' k = Some v /\ (forall j, j <> k -> slab_get s' j = slab_get s j) /\ wf s'.

Lemma inserted_get (s : slab) k v s' j e : inserted s k v s' ->
  slab_get s' j = Some e <-> (j = k /\ e = v) \/ slab_get s j = Some e.
Proof.
  intros (Hn & Hs & Ho & _). destruct (Nat.eq_dec j k) as [->|Hne].
  - rewrite Hs, Hn. split; [intros H; inversion H; auto|intros [[_ ->]|H]; [reflexivity|discriminate]].
  - rewrite Ho by exact Hne. split; [auto|intros [[E _]|H]; [contradiction|exact H]].
Qed.

Lemma insert_spec (s : slab) v : wf s -> exists s', slab_insert s v = Ok (next s, s') /\ inserted s (next s) v s'.
Proof.
  intros (fl & Hc & Hnd & Hall & Hlen).
  unfold slab_insert.
  destruct (chain_head _ _ _ Hc) as [Hfull | (nx & fl' & -> & Hk & Hc')].
  - (* push *)
    rewrite Hfull, Nat.eqb_refl. eexists; split; [reflexivity|].
    assert (fl = []) by (apply chain_at_len with (es := entries s); rewrite <- Hfull; exact Hc). subst fl.
    unfold inserted, slab_get; simpl. repeat split.
    + rewrite (proj2 (nth_error_None _ _)); auto.
    + rewrite nth_error_snoc, Nat.eqb_refl. reflexivity.
    + intros j Hj. rewrite nth_error_snoc. apply Nat.eqb_neq in Hj. rewrite Hj. reflexivity.
    + exists []. simpl. repeat split.
      * replace (S (length (entries s))) with (length (entries s ++ [Occupied v])) by (rewrite app_length; simpl; lia).
        constructor.
      * constructor.
      * intros k nx Hk. rewrite nth_error_snoc in Hk. destruct (Nat.eqb k (length (entries s))); [discriminate|exact (Hall _ _ Hk)].
      * rewrite count_occ_app. simpl. lia.
  - (* reuse the head of the free list *)
    pose proof (nth_error_lt _ _ _ Hk) as Hlt.
    destruct (Nat.eqb_spec (next s) (length (entries s))) as [E|_]; [lia|].
    rewrite Hk. eexists; split; [reflexivity|].
    inversion Hnd as [|? ? Hnin Hnd']; subst.
    repeat split.
    + unfold slab_get. rewrite Hk. reflexivity.
    + unfold slab_get; simpl. rewrite nth_error_upd_same by lia. reflexivity.
    + intros j Hj. unfold slab_get; simpl. rewrite nth_error_upd_other by auto. reflexivity.
    + exists fl'. simpl. repeat split.
      * apply chain_upd_notin; auto.
      * exact Hnd'.
      * intros k nx' Hk'.
        destruct (Nat.eq_dec k (next s)) as [->|Hne].
        -- rewrite nth_error_upd_same in Hk' by lia. discriminate.
        -- rewrite nth_error_upd_other in Hk' by auto.
           destruct (Hall _ _ Hk') as [E|Hin]; [congruence|exact Hin].
      * pose proof (count_occ_upd _ _ _ (Occupied v) Hk). simpl in *. lia.
Qed.

Lemma set_spec (s : slab) k v v' : wf s -> slab_get s k = Some v ->
  slab_get (slab_set s k v') k = Some v' /\
  (forall j, j <> k -> slab_get (slab_set s k v') j = slab_get s j) /\
  wf (slab_set s k v').
Proof.
  intros (fl & Hc & Hnd & Hall & Hlen) Hg.
  apply get_occ in Hg. pose proof (nth_error_lt _ _ _ Hg) as Hlt.
  unfold slab_set. rewrite Hg. repeat split.
  - unfold slab_get; simpl. rewrite nth_error_upd_same by lia. reflexivity.
  - intros j Hj. unfold slab_get; simpl. rewrite nth_error_upd_other by auto. reflexivity.
  - exists fl. simpl. repeat split; auto.
    + apply chain_upd_notin; auto. intros Hin.
      destruct (chain_in_vacant _ _ _ _ Hc Hin) as (nx & E). congruence.
    + intros j nx Hj. destruct (Nat.eq_dec j k) as [->|Hne].
      * rewrite nth_error_upd_same in Hj by lia. discriminate.
      * rewrite nth_error_upd_other in Hj by auto. eauto.
    + pose proof (count_occ_upd _ _ _ (Occupied v') Hg). simpl in *. lia.
Qed.

Definition removed (s : slab) (k : nat) (s' : slab) : Prop :=
  slab_get s' k = None /\ (forall j, j <> k -> slab_get s' j = slab_get s j) /\ next s' = k /\ wf s' /\
  length (entries s') = length (entries s).

Lemma removed_get (s : slab) k s' j e : removed s k s' -> slab_get s' j = Some e <-> j <> k /\ slab_get s j = Some e.
Proof.
  intros (Hn & Ho & _). destruct (Nat.eq_dec j k) as [->|Hne].
  - rewrite Hn. split; [discriminate|intros [H _]; elim H; reflexivity].
  - rewrite Ho by exact Hne. tauto.
Qed.

Lemma try_remove_spec (s : slab) k v : wf s -> slab_get s k = Some v ->
  exists s', slab_try_remove s k = (Some v, s') /\ removed s k s'.
Proof.
  intros (fl & Hc & Hnd & Hall & Hlen) Hg.
  apply get_occ in Hg. pose proof (nth_error_lt _ _ _ Hg) as Hlt.
  unfold slab_try_remove. rewrite Hg. eexists; split; [reflexivity|].
  assert (Hnin : ~ In k fl).
  { intros Hin. destruct (chain_in_vacant _ _ _ _ Hc Hin) as (nx & E). congruence. }
  repeat split.
  - unfold slab_get; simpl. rewrite nth_error_upd_same by lia. reflexivity.
  - intros j Hj. unfold slab_get; simpl. rewrite nth_error_upd_other by auto. reflexivity.
  - exists (k :: fl). simpl. repeat split.
    + econstructor.
      * rewrite nth_error_upd_same by lia. reflexivity.
      * apply chain_upd_notin; auto.
    + constructor; auto.
    + intros j nx Hj. destruct (Nat.eq_dec j k) as [->|Hne]; [left; reflexivity|right].
      rewrite nth_error_upd_other in Hj by auto. eauto.
    + pose proof (count_occ_upd _ _ _ (Vacant (next s)) Hg). simpl in *. lia.
  - apply upd_length.
Qed.

Lemma try_remove_none (s : slab) k : slab_get s k = None -> slab_try_remove s k = (None, s).
Proof.
  unfold slab_get, slab_try_remove. destruct (nth_error (entries s) k) as [[?|?]|]; try discriminate; auto.
Qed.

Lemma set_length (s : slab) k v : length (entries (slab_set s k v)) = length (entries s).
Proof. unfold slab_set. destruct (nth_error (entries s) k) as [[|]|]; simpl; rewrite ?upd_length; reflexivity. Qed.

Lemma remove_spec (s : slab) k v : wf s -> slab_get s k = Some v ->
  exists s', slab_remove s k = Ok (v, s') /\ removed s k s'.
Proof.
  intros Hwf Hg. destruct (try_remove_spec s k v Hwf Hg) as (s' & E & H).
  exists s'. unfold slab_remove. rewrite E. auto.
Qed.

Lemma removed_after_set (s : slab) k v v' s' : wf s -> slab_get s k = Some v ->
  removed (slab_set s k v') k s' -> removed s k s'.
Proof.
  intros Hwf Hg (Hn & Ho & Hnx & Hwf' & Hlen). destruct (set_spec s k v v' Hwf Hg) as (_ & Hos & _).
  rewrite set_length in Hlen. repeat split; auto. intros j Hj. rewrite Ho, Hos; auto.
Qed.

Lemma remove_then_insert_reuses (s : slab) k v v' : wf s -> slab_get s k = Some v ->
  exists s' s'', slab_remove s k = Ok (v, s') /\ slab_insert s' v' = Ok (k, s'').
Proof.
  intros Hwf Hg. destruct (remove_spec s k v Hwf Hg) as (s' & E & _ & _ & Hn & Hwf' & _).
  destruct (insert_spec s' v' Hwf') as (s'' & E' & _).
  exists s', s''. rewrite Hn in E'. auto.
Qed.

(* the unreachable!() in insert_at is unreachable *)
Lemma insert_fresh (s : slab) v : wf s ->
  exists k s', slab_insert s v = Ok (k, s') /\ slab_get s k = None.
Proof. intros H. destruct (insert_spec s v H) as (s' & E & Hn & _). eauto. Qed.

Lemma wf_next_le (s : slab) : wf s -> next s <= length (entries s).
Proof.
  intros (fl & Hc & _). destruct (chain_head _ _ _ Hc) as [E|(nx & fl' & _ & Hk & _)]; [lia|].
  apply nth_error_lt in Hk. lia.
Qed.

Lemma insert_length (s : slab) v k s' : slab_insert s v = Ok (k, s') ->
  length (entries s') <= S (length (entries s)) /\ length (entries s) <= length (entries s').
Proof.
  unfold slab_insert. destruct (Nat.eqb (next s) (length (entries s))).
  - intros H; inversion H; subst; simpl. rewrite app_length; simpl; lia.
  - destruct (nth_error (entries s) (next s)) as [[?|nx]|]; try discriminate.
    intros H; inversion H; subst; simpl. rewrite upd_length. lia.
Qed.

Lemma wf_full (s : slab) : wf s -> next s = length (entries s) -> len s = length (entries s).
Proof.
  intros (fl & Hc & _ & Hall & Hlen) Hfull. rewrite Hfull in Hc. apply chain_at_len in Hc. subst fl.
  rewrite Hlen. apply count_occ_no_vacant. intros k nx Hk. exact (Hall k nx Hk).
Qed.

Theorem insert_reuses_vacant (s : slab) v k s' : wf s -> slab_insert s v = Ok (k, s') ->
  len s < length (entries s) -> length (entries s') = length (entries s) /\ k < length (entries s).
Proof.
  intros Hwf Hins Hlt. unfold slab_insert in Hins.
  destruct (Nat.eqb_spec (next s) (length (entries s))) as [Hfull|_]; [apply (wf_full s Hwf) in Hfull; lia|].
  destruct (nth_error (entries s) (next s)) as [[|nx]|] eqn:Hk; inversion Hins; subst. simpl.
  rewrite upd_length. split; [reflexivity|eapply nth_error_lt; eauto].
Qed.

Lemma occupied_from_in (l : list entry) b k v :
  In (k, v) (occupied_from l b) <-> exists j, k = b + j /\ nth_error l j = Some (Occupied v).
Proof.
  revert b; induction l as [|h t IH]; intros b; simpl.
  - split; [tauto|]. intros ([|j] & _ & H); discriminate.
  - destruct h as [w|n]; simpl; rewrite IH; split.
    + intros [E|(j & -> & Hj)]; [inversion E; subst; exists 0; split; [lia|reflexivity]|exists (S j); split; [lia|exact Hj]].
    + intros ([|j] & -> & Hj); simpl in Hj; [left; inversion Hj; f_equal; lia|right; exists j; split; [lia|exact Hj]].
    + intros (j & -> & Hj). exists (S j). split; [lia|exact Hj].
    + intros ([|j] & -> & Hj); simpl in Hj; [discriminate|exists j; split; [lia|exact Hj]].
Qed.

Lemma slab_iter_in (s : slab) k v : In (k, v) (slab_iter s) <-> slab_get s k = Some v.
Proof.
  unfold slab_iter. rewrite occupied_from_in, get_occ. split; [intros (j & -> & H); exact H|intros H; exists k; auto].
Qed.

Lemma occupied_from_length (l : list entry) b : length (occupied_from l b) = count_occ_entries l.
Proof. revert b; induction l as [|[v|n] t IH]; intros b; simpl; auto. Qed.

Lemma slab_iter_length (s : slab) : wf s -> length (slab_iter s) = len s.
Proof. intros (fl & _ & _ & _ & H). rewrite H. apply occupied_from_length. Qed.

Lemma occupied_from_keys (l : list entry) : forall b,
  NoDup (map fst (occupied_from l b)) /\ forall k, In k (map fst (occupied_from l b)) -> b <= k.
Proof.
  induction l as [|e t IH]; intros b; simpl; [split; [constructor|intros k []]|].
  destruct (IH (S b)) as [Hnd Hge]. destruct e as [v|n]; simpl.
  - split.
    + constructor; auto. intros Hin. apply Hge in Hin. lia.
    + intros k [<-|Hin]; [lia|]. apply Hge in Hin. lia.
  - split; auto. intros k Hin. apply Hge in Hin. lia.
Qed.

Lemma slab_iter_keys_nodup (s : slab) : NoDup (map fst (slab_iter s)).
Proof. apply occupied_from_keys. Qed.

Lemma slab_iter_nodup (s : slab) : NoDup (slab_iter s).
Proof. eapply NoDup_map_inv. apply slab_iter_keys_nodup. Qed.

End SlabProofs.
