(* List facts shared by the Bridge proofs; [upd] is Slab.v's. *)
From Coq Require Import List Arith Bool Lia.
From Crux Require Import Bridge.Slab.
Import ListNotations.

Lemma nth_error_lt {A} (l : list A) k x : nth_error l k = Some x -> k < length l.
Proof. intros H. apply nth_error_Some. congruence. Qed.

Lemma nth_error_app_Some {A} (l l' : list A) k x : nth_error l k = Some x -> nth_error (l ++ l') k = Some x.
Proof. intros H. rewrite nth_error_app1; [exact H|eapply nth_error_lt; eauto]. Qed.

Lemma nth_error_snoc {A} (l : list A) x k :
  nth_error (l ++ [x]) k = if Nat.eqb k (length l) then Some x else nth_error l k.
Proof.
  destruct (Nat.eqb_spec k (length l)) as [->|Hne].
  - rewrite nth_error_app2, Nat.sub_diag by lia. reflexivity.
  - destruct (Nat.lt_ge_cases k (length l)) as [Hlt|Hge]; [apply nth_error_app1; exact Hlt|].
    rewrite (proj2 (nth_error_None l k) Hge). apply nth_error_None. rewrite app_length. simpl. lia.
Qed.

Lemma nth_error_snoc_old {A} (l : list A) x k :
  nth_error (l ++ [x]) k =
  match nth_error l k with Some y => Some y | None => if Nat.eqb k (length l) then Some x else None end.
Proof.
  rewrite nth_error_snoc. destruct (Nat.eqb_spec k (length l)) as [->|].
  - rewrite (proj2 (nth_error_None l _) (le_n _)). reflexivity.
  - destruct (nth_error l k); reflexivity.
Qed.

Lemma upd_length {A} (l : list A) k x : length (upd l k x) = length l.
Proof. revert k; induction l as [|h t IH]; intros [|k]; simpl; auto. Qed.

Lemma nth_error_upd {A} (l : list A) k j x :
  nth_error (upd l k x) j = if Nat.eqb j k then option_map (fun _ => x) (nth_error l k) else nth_error l j.
Proof.
  revert k j; induction l as [|h t IH]; intros k j; simpl.
  - destruct j, (Nat.eqb _ k), k; reflexivity.
  - destruct k, j; simpl; auto.
Qed.

Lemma nth_error_upd_same {A} (l : list A) k x : k < length l -> nth_error (upd l k x) k = Some x.
Proof.
  intros H. rewrite nth_error_upd, Nat.eqb_refl. destruct (nth_error l k) eqn:E; [reflexivity|].
  apply nth_error_None in E. lia.
Qed.

Lemma nth_error_upd_other {A} (l : list A) k j x : j <> k -> nth_error (upd l k x) j = nth_error l j.
Proof. intros H. rewrite nth_error_upd. apply Nat.eqb_neq in H. rewrite H. reflexivity. Qed.

Lemma upd_same {A} (l : list A) k x : nth_error l k = Some x -> upd l k x = l.
Proof.
  revert k; induction l as [|h t IH]; intros [|k] H; simpl in *; try discriminate; auto.
  - inversion H; reflexivity.
  - f_equal. auto.
Qed.

Lemma existsb_eqb_In {A} (eqb : A -> A -> bool) : (forall x y, eqb x y = true <-> x = y) ->
  forall x l, existsb (eqb x) l = true <-> In x l.
Proof.
  intros H x l. rewrite existsb_exists. split.
  - intros (y & Hy & E). apply H in E. subst. exact Hy.
  - intros Hin. exists x. split; [exact Hin|apply H; reflexivity].
Qed.

Lemma NoDup_map_filter {X Y} (f : X -> Y) p (l : list X) : NoDup (map f l) -> NoDup (map f (filter p l)).
Proof.
  induction l as [|x t IH]; simpl; intros H; [constructor|].
  inversion H as [|? ? Hn Hd]; subst. destruct (p x); simpl; auto.
  constructor; auto. intros Hin. apply Hn.
  apply in_map_iff in Hin as (y & Hy & Hin). apply filter_In in Hin as [Hin _].
  apply in_map_iff. eauto.
Qed.

Lemma NoDup_map_inj_on {X Y} (f : X -> Y) (l : list X) :
  (forall x y, In x l -> In y l -> f x = f y -> x = y) -> NoDup l -> NoDup (map f l).
Proof.
  intros Hinj Hnd. induction Hnd as [|x l Hn Hd IH]; simpl; constructor.
  - intros Hin. apply in_map_iff in Hin as (y & Hy & Hin). apply Hn. rewrite <- (Hinj y x); simpl; auto.
  - apply IH. intros a b Ha Hb. apply Hinj; simpl; auto.
Qed.

Lemma NoDup_app_snoc {X} (l : list X) x : NoDup l -> ~ In x l -> NoDup (l ++ [x]).
Proof.
  induction l as [|h t IH]; simpl; intros Hd Hn.
  - constructor; auto.
  - inversion Hd; subst. constructor.
    + rewrite in_app_iff. simpl. intros [H|[H|[]]]; auto.
    + apply IH; auto.
Qed.

Lemma find_key_NoDup {V} (l : list (nat * V)) k v : NoDup (map fst l) -> In (k, v) l ->
  find (fun p => Nat.eqb (fst p) k) l = Some (k, v).
Proof.
  induction l as [|[k' v'] t IH]; simpl; intros Hnd Hin; [destruct Hin|].
  inversion Hnd as [|? ? Hn Hd]; subst. destruct Hin as [E|Hin].
  - inversion E; subst. rewrite Nat.eqb_refl. reflexivity.
  - destruct (Nat.eqb_spec k' k) as [->|]; [|auto]. elim Hn. apply in_map_iff. exists (k, v). auto.
Qed.

Lemma map_combine {X Y} (xs : list X) (ys : list Y) : length xs = length ys ->
  map fst (combine xs ys) = xs /\ map snd (combine xs ys) = ys.
Proof.
  revert ys; induction xs as [|x xs IH]; intros [|y ys] H; simpl in *; try discriminate; auto.
  destruct (IH ys) as [-> ->]; auto.
Qed.

Definition at_index {A} (p : A -> bool) (l : list A) (k : nat) : bool :=
  match nth_error l k with Some x => p x | None => false end.

Lemma filter_length_index {A} (p : A -> bool) (l : list A) :
  length (filter p l) = length (filter (at_index p l) (seq 0 (length l))).
Proof.
  induction l as [|x t IH]; simpl; auto.
  rewrite <- seq_shift. unfold at_index at 1. simpl.
  assert (E : length (filter (at_index p (x :: t)) (map S (seq 0 (length t)))) = length (filter (at_index p t) (seq 0 (length t)))).
  { generalize (seq 0 (length t)). induction l as [|k r IHr]; simpl; auto.
    unfold at_index at 1. simpl. fold (at_index p t k). destruct (at_index p t k); simpl; auto. }
  destruct (p x); simpl; rewrite E, IH; reflexivity.
Qed.

Lemma filter_split {A} (p q : A -> bool) (l : list A) : (forall x, q x = true -> p x = true) ->
  length (filter p l) = length (filter (fun x => p x && negb (q x)) l) + length (filter q l).
Proof.
  intros Himp. induction l as [|x t IH]; simpl; auto.
  destruct (q x) eqn:Eq.
  - rewrite (Himp x Eq). simpl. lia.
  - destruct (p x); simpl; lia.
Qed.
