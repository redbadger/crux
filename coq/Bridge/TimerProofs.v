(* The legacy timer set (Timer.v): an id stays in CLEARED_TIMER_IDS only while a task waits on its timer or when
   it was cleared with nobody waiting, so the set is bounded by the waiting timers plus the ghost list [tm_stale]. *)
From Coq Require Import List Arith Bool NArith Lia.
From Crux Require Import Bridge.ListFacts Bridge.Timer.
Import ListNotations.

Lemma mem_in x l : mem x l = true <-> In x l.
Proof. apply existsb_eqb_In, N.eqb_eq. Qed.

Lemma in_remove_id x y l : In y (remove_id x l) <-> In y l /\ y <> x.
Proof.
  unfold remove_id. rewrite filter_In, negb_true_iff, N.eqb_neq. split; intros [A B]; split; auto.
Qed.

Definition TInv (t : timers) : Prop :=
  NoDup (tm_cleared t) /\ (forall id, In id (tm_cleared t) -> In id (tm_pending t) \/ In id (tm_stale t)).

Lemma TInv_init n : TInv (timers_init n).
Proof. split; [constructor|intros id []]. Qed.

Lemma tstep_TInv t a : TInv t -> TInv (tstep t a).
Proof.
  intros (Hnd & Hin). destruct a as [|id|id]; simpl.
  - split; auto. intros id H. destruct (Hin id H); [left; apply in_or_app; auto|auto].
  - split.
    + destruct (mem id (tm_cleared t)) eqn:E; auto. constructor; auto. intros H. apply mem_in in H. congruence.
    + intros x Hx.
      assert (Hcase : In x (tm_cleared t) \/ x = id).
      { destruct (mem id (tm_cleared t)); [auto|destruct Hx; auto]. }
      destruct Hcase as [H|Heq]; [|subst x].
      * destruct (Hin x H); [auto|]. right. destruct (mem id (tm_pending t) || mem id (tm_stale t)); [auto|right; auto].
      * destruct (mem id (tm_pending t)) eqn:Ep; simpl; [left; apply mem_in; exact Ep|].
        right. destruct (mem id (tm_stale t)) eqn:Es; [apply mem_in; exact Es|left; reflexivity].
  - destruct (mem id (tm_pending t)); [|split; auto]. simpl. split; [apply NoDup_filter; auto|].
    intros x Hx. apply in_remove_id in Hx as [Hx Hne]. destruct (Hin x Hx); [left; apply in_remove_id; auto|auto].
Qed.

Theorem trun_TInv : forall acts t, TInv t -> TInv (trun t acts).
Proof. induction acts as [|a rest IH]; intros t H; simpl; auto. apply IH. apply tstep_TInv. exact H. Qed.

Theorem cleared_bound t : TInv t -> length (tm_cleared t) <= length (tm_pending t) + length (tm_stale t).
Proof.
  intros (Hnd & Hin). rewrite <- app_length. apply NoDup_incl_length; auto.
  intros x Hx. apply in_or_app. auto.
Qed.

(* so, with [cleared_bound], the waiting timers alone bound the cleared set *)
Lemma no_stale_step t a : tm_stale t = [] ->
  (forall id, a = TClear id -> In id (tm_pending t)) -> tm_stale (tstep t a) = [].
Proof.
  intros Hs Hc. destruct a as [|id|id]; simpl; auto.
  - assert (H : mem id (tm_pending t) = true) by (apply mem_in; auto). rewrite H. exact Hs.
  - destruct (mem id (tm_pending t)); auto.
Qed.
