(* C13, task part, on the request-layer heap: every live sender is held by the callback of some request (TxInv, kept
   by every action); hence, after the tasks have run, the live consumers are at most the requests that can still be
   resolved plus the legacy consumers that can never finish (known class). *)
From Coq Require Import List Arith Bool ZArith NArith Lia.
From Crux Require Import Base.Res Bridge.Slab Bridge.ListFacts Bridge.Bridge Bridge.Resolve Bridge.ResolveProofs
                         Bridge.Release.
Import ListNotations.

(* [live_tasks h] unfolds to [Release.live_count h] *)
Definition live_chans (h : heap) : list chan := filter ch_rx (h_chans h).
Definition live_tasks (h : heap) : nat := length (live_chans h).

Lemma kill_all_released chs :
  filter ch_rx (map kill chs) = [] /\
  forall c ch, nth_error (map kill chs) c = Some ch -> ch_rx ch = false /\ ch_buf ch = [].
Proof.
  split; [induction chs; simpl; auto|]. intros c ch Hc. rewrite nth_error_map in Hc.
  destruct (nth_error chs c); inversion Hc; subst. split; reflexivity.
Qed.

Definition TxInv (h : heap) : Prop :=
  forall c ch, nth_error (h_chans h) c = Some ch -> ch_tx ch = true ->
    exists rid q, nth_error (h_reqs h) rid = Some q /\ closure_of (q_res q) = Some c.

Lemma TxInv_empty : TxInv heap_empty.
Proof. intros [|c] ch H; discriminate. Qed.

(* senders are never revived, and a request loses its callback only together with its sender *)
Theorem step_TxInv (h : heap) (a : action) : Inv h -> TxInv h -> TxInv (fst (step h a)).
Proof.
  intros HI HT c ch' Hc' Htx'. rewrite step_chan_nth in Hc'. destruct (nth_error (h_chans h) c) as [ch|] eqn:Hch.
  - inversion Hc'; subst ch'. destruct (HT c ch Hch (chan_after_tx_mono _ _ _ _ Htx')) as (rid & q & Hq & Hcl).
    rewrite (chan_after_tx h a rid q c ch HI Hq Hcl) in Htx'.
    destruct (closure_of (res_after a rid (q_res q))) eqn:E; [|discriminate].
    exists rid. rewrite step_req_nth, Hq. eexists; split; [reflexivity|]. simpl.
    rewrite (res_after_closure _ _ _ _ E). exact Hcl.
  - destruct (Nat.eqb_spec c (length (h_chans h))) as [->|]; [|discriminate]. exists (length (h_reqs h)).
    rewrite step_req_nth, (proj2 (nth_error_None _ _) (le_n _)), Nat.eqb_refl.
    destruct a as [owner [| |] limit legacy| | | | | |]; try discriminate Hc'; (eexists; split; reflexivity).
Qed.

Theorem run_TxInv : forall acts h, Inv h -> TxInv h -> TxInv (fst (run h acts)).
Proof.
  intros acts h HI HT. apply (run_invariant (fun _ => True) (fun h => Inv h /\ TxInv h)); auto.
  intros h0 a _ [HI0 HT0]. split; [apply step_Inv|apply step_TxInv]; assumption.
Qed.

Theorem survivor_after_poll (h : heap) c ch' :
  Inv h -> TxInv h -> h_aborted h = false ->
  nth_error (h_chans (fst (step h APoll))) c = Some ch' -> ch_rx ch' = true ->
  ch_buf ch' = [] /\
  ((exists rid q, nth_error (h_reqs (fst (step h APoll))) rid = Some q /\ closure_of (q_res q) = Some c /\
                  q_owner q = ch_owner ch') \/
   (ch_legacy ch' = true /\ ch_tx ch' = false)).
Proof.
  intros HI HT Hab Hc' Hrx'.
  destruct (step_Inv h APoll HI) as (H1' & _). pose proof (step_TxInv h APoll HI HT) as HT'.
  pose proof Hc' as Hn. rewrite step_poll_chan_nth in Hn by exact Hab.
  destruct (nth_error (h_chans h) c) as [ch|]; [|discriminate]. inversion Hn; subst ch'.
  destruct (consume_survivor ch Hrx') as [Hbuf Hsender]. split; [exact Hbuf|].
  destruct (consume_static ch) as (Htx & _ & _ & _ & Hleg).
  destruct (ch_tx (fst (consume ch))) eqn:Et; [left|right; destruct Hsender; [congruence|split; congruence]].
  destruct (HT' c _ Hc' Et) as (rid & q & Hq & Hcl). exists rid, q. split; [exact Hq|]. split; [exact Hcl|].
  destruct (H1' rid q c Hq Hcl) as (ch2 & Hch2 & _ & Ho & _). rewrite Hc' in Hch2. inversion Hch2; subst. auto.
Qed.

(* the test by which Release.legacy_stuck counts *)
Definition stuck_chan (c : chan) : bool :=
  ch_rx c && ch_legacy c && negb (ch_tx c) && match ch_buf c with [] => true | _ => false end.

Definition closure_ids (reqs : list rcell) : list nat :=
  flat_map (fun q => match closure_of (q_res q) with Some c => [c] | None => [] end) reqs.

Lemma closure_ids_length h : length (closure_ids (h_reqs h)) = outstanding h.
Proof.
  unfold outstanding. induction (h_reqs h) as [|q t IH]; simpl; auto.
  destruct (closure_of (q_res q)); simpl; lia.
Qed.

Lemma closure_ids_in reqs rid q c : nth_error reqs rid = Some q -> closure_of (q_res q) = Some c -> In c (closure_ids reqs).
Proof.
  intros Hq Hc. unfold closure_ids. apply in_flat_map. exists q. split; [eapply nth_error_In; eauto|]. rewrite Hc. left. reflexivity.
Qed.

(* the live consumers are the stuck legacy ones and the others; each of the others has a sender of its own, held by
   a callback of its own *)
Theorem live_bound_after_poll (h : heap) : Inv h -> TxInv h -> h_aborted h = false ->
  let h' := fst (step h APoll) in
  live_count h' <= outstanding h' + legacy_stuck h'.
Proof.
  intros HI HT Hab h'.
  unfold live_count. change (legacy_stuck h') with (length (filter stuck_chan (h_chans h'))).
  rewrite <- closure_ids_length, (filter_split ch_rx stuck_chan)
    by (intros c Hc; unfold stuck_chan in Hc; destruct (ch_rx c); [reflexivity|discriminate]).
  apply Nat.add_le_mono_r. rewrite filter_length_index. apply NoDup_incl_length; [apply NoDup_filter, seq_NoDup|].
  intros k Hk. apply filter_In in Hk as [_ Hk]. unfold at_index in Hk.
  destruct (nth_error (h_chans h') k) as [ch'|] eqn:Hc'; [|discriminate].
  apply andb_true_iff in Hk as [Hrx Hns]. apply negb_true_iff in Hns.
  destruct (survivor_after_poll h k ch' HI HT Hab Hc' Hrx) as [Hbuf [(rid & q & Hq & Hcl & _)|[Hl Ht]]].
  - eapply closure_ids_in; eauto.
  - unfold stuck_chan in Hns. rewrite Hrx, Hbuf, Hl, Ht in Hns. discriminate.
Qed.
