(* The registry's ghost log: every Issue uses an id that is free at that moment, every Forget names
   the request registered under the id; hence ids of registered requests are pairwise distinct at
   every reachable state and an id is reissued only after its previous holder was forgotten. *)
From Coq Require Import List Arith Bool ZArith NArith Lia.
From Crux Require Import Base.Res Bridge.Slab Bridge.SlabProofs Bridge.Bridge Bridge.BridgeProofs.
Import ListNotations.

Lemma live_snoc log ev : live (log ++ [ev]) = live_step (live log) ev.
Proof. unfold live. rewrite fold_left_app. reflexivity. Qed.

Lemma pair_eqb_eq a b : pair_eqb a b = true <-> a = b.
Proof.
  destruct a as [a1 a2], b as [b1 b2]. unfold pair_eqb; simpl.
  rewrite andb_true_iff, !Nat.eqb_eq. split; [intros [-> ->]; auto|intros H; inversion H; auto].
Qed.

Lemma in_live_forget acc s i p : In p (live_step acc (Forget s i)) <-> In p acc /\ p <> (s, i).
Proof.
  simpl. rewrite filter_In. rewrite negb_true_iff.
  split; intros [H1 H2]; split; auto.
  - intros ->. assert (pair_eqb (s, i) (s, i) = true) by (apply pair_eqb_eq; auto). congruence.
  - destruct (pair_eqb p (s, i)) eqn:E; auto. apply pair_eqb_eq in E. contradiction.
Qed.

Inductive log_wf : list gev -> Prop :=
| log_nil : log_wf []
| log_issue log s i : log_wf log -> ~ In i (map snd (live log)) -> log_wf (log ++ [Issue s i])
| log_forget log s i : log_wf log -> In (s, i) (live log) -> log_wf (log ++ [Forget s i]).

Lemma log_wf_snoc_inv log ev : log_wf (log ++ [ev]) ->
  log_wf log /\ match ev with
                | Issue s i => ~ In i (map snd (live log))
                | Forget s i => In (s, i) (live log)
                end.
Proof.
  inversion 1 as [E | l s i Hl Hn E | l s i Hl Hn E].
  - destruct log; discriminate.
  - apply app_inj_tail in E as [-> <-]. auto.
  - apply app_inj_tail in E as [-> <-]. auto.
Qed.

Lemma log_wf_prefix l l' : log_wf (l ++ l') -> log_wf l.
Proof.
  induction l' as [|ev l' IH] using rev_ind; intros H.
  - rewrite app_nil_r in H. exact H.
  - rewrite app_assoc in H. apply log_wf_snoc_inv in H. tauto.
Qed.

Lemma log_wf_ids_distinct log : log_wf log -> NoDup (map snd (live log)).
Proof.
  induction 1 as [|log s i Hl IH Hn|log s i Hl IH Hin].
  - constructor.
  - rewrite live_snoc. simpl. rewrite map_app. simpl.
    apply NoDup_app_snoc; auto.
  - rewrite live_snoc. simpl. apply NoDup_map_filter. exact IH.
Qed.

Lemma issued_live_or_forgotten l1 s i : forall l2,
  In (s, i) (live (l1 ++ Issue s i :: l2)) \/ In (Forget s i) l2.
Proof.
  induction l2 as [|ev l2 IH] using rev_ind.
  - left. rewrite live_snoc. simpl. apply in_or_app. right. left. reflexivity.
  - rewrite app_comm_cons, app_assoc, live_snoc. destruct IH as [Hin|Hf]; [|right; apply in_or_app; auto].
    destruct ev as [s' i'|s' i'].
    + left. simpl. apply in_or_app. auto.
    + destruct (pair_eqb (s, i) (s', i')) eqn:E.
      * apply pair_eqb_eq in E. inversion E; subst. right. apply in_or_app. right. left. reflexivity.
      * left. apply in_live_forget. split; auto. intros Heq. apply pair_eqb_eq in Heq. congruence.
Qed.

Lemma log_wf_reuse_safe log l1 s1 i l2 s2 l3 :
  log_wf log -> log = l1 ++ Issue s1 i :: l2 ++ Issue s2 i :: l3 -> In (Forget s1 i) l2.
Proof.
  intros H ->.
  replace (l1 ++ Issue s1 i :: l2 ++ Issue s2 i :: l3)
    with (((l1 ++ Issue s1 i :: l2) ++ [Issue s2 i]) ++ l3) in H
    by (rewrite <- !app_assoc; simpl; reflexivity).
  apply log_wf_prefix in H. apply log_wf_snoc_inv in H as [_ Hn].
  destruct (issued_live_or_forgotten l1 s1 i l2) as [Hin|Hf]; auto.
  exfalso. apply Hn. apply in_map_iff. exists (s1, i). auto.
Qed.

Section RegistryProofs.
Variables (cstate event op value view handle B : Type).
Notation eff := (eff op handle).
Notation rentry := (rentry op handle).
Notation bstate := (bstate cstate op handle).
Notation bytes := (list B).

Variable core_event : cstate -> event -> cstate * list eff.
Variable core_process : cstate -> cstate * list eff.
Variable core_call : cstate -> handle -> value -> cstate * bool.
Variable core_drop : cstate -> handle -> cstate.
Variable core_view : cstate -> view.
Variable dec_event : bytes -> option (event * bytes).
Variable dec_out : op -> bytes -> option (value * bytes).
Variable enc_reqs : list (nat * op) -> bytes.
Variable enc_view : view -> bytes.

Notation bridge_step := (bridge_step cstate event op value view handle B core_event core_process core_call core_drop core_view dec_event dec_out enc_reqs enc_view).
Notation resume := (resume cstate op value handle B core_call core_drop dec_out).
Notation finish := (finish cstate op handle B enc_reqs).
Notation bridge_run := (bridge_run cstate event op value view handle B core_event core_process core_call core_drop core_view dec_event dec_out enc_reqs enc_view).

(* the log's view of what is registered coincides with the slab *)
Definition LiveRel (reg : slab rentry) (log : list gev) : Prop :=
  forall s i, In (s, i) (live log) <-> exists e, slab_get reg i = Some e /\ r_seq e = s.

Definition BInv (b : bstate) : Prop :=
  wf (b_reg b) /\ LiveRel (b_reg b) (b_log b) /\ log_wf (b_log b).

Lemma register_all_log : forall (effs : list eff) reg seq log reg' seq' log' reqs,
  wf reg -> LiveRel reg log -> log_wf log ->
  register_all reg seq log effs = Ok (reg', seq', log', reqs) ->
  wf reg' /\ LiveRel reg' log' /\ log_wf log'.
Proof.
  induction effs as [|e rest IH]; intros reg seq log reg' seq' log' reqs Hwf HL Hlw Hr.
  - inversion Hr; subst. auto.
  - destruct (register_all_cons _ _ _ _ _ _ _ _ _ _ _ Hwf Hr) as (reg1 & reqs1 & Hins & E2 & _).
    pose proof Hins as (Hn & _ & _ & Hwf1).
    assert (Hfresh : ~ In (next reg) (map snd (live log))).
    { intros Hin. apply in_map_iff in Hin as ([s i] & Hi & Hin). simpl in Hi. subst i.
      apply HL in Hin as (e0 & He0 & _). congruence. }
    assert (HL1 : LiveRel reg1 (log ++ [Issue seq (next reg)])).
    { intros s i. rewrite live_snoc. simpl. rewrite in_app_iff, (HL s i). simpl. split.
      - intros [(e0 & He0 & Hs0)|[Heq|[]]].
        + exists e0. split; [apply (inserted_get _ _ _ _ _ _ Hins); auto|exact Hs0].
        + inversion Heq; subst. eexists; split; [apply (inserted_get _ _ _ _ _ _ Hins); left; auto|reflexivity].
      - intros (e0 & He0 & Hs0). apply (inserted_get _ _ _ _ _ _ Hins) in He0 as [[-> ->]|He0]; [subst s; auto|eauto]. }
    assert (Hlw1 : log_wf (log ++ [Issue seq (next reg)])) by (constructor; auto).
    exact (IH _ _ _ _ _ _ _ Hwf1 HL1 Hlw1 E2).
Qed.

Lemma finish_inv (b : bstate) c effs : BInv b -> BInv (fst (finish b c effs)).
Proof.
  intros (Hwf & HL & Hlw).
  destruct (finish_cases _ _ _ _ enc_reqs b c effs Hwf) as [[_ E]|(reg & seq & log & reqs & E & E')]; [rewrite E; split; auto|].
  rewrite E'. exact (register_all_log _ _ _ _ _ _ _ _ Hwf HL Hlw E).
Qed.

Lemma removed_inv (b : bstate) c id e reg' :
  BInv b -> slab_get (b_reg b) id = Some e -> removed (b_reg b) id reg' ->
  BInv (mkB c reg' (b_seq b) (b_log b ++ [Forget (r_seq e) id])).
Proof.
  intros (Hwf & HL & Hlw) Hg Hrem.
  assert (Hin : In (r_seq e, id) (live (b_log b))) by (apply HL; eauto).
  split; [apply Hrem|]. split; [|constructor; auto].
  intros s i. simpl. rewrite live_snoc, in_live_forget, (HL s i). split.
  - intros [(e0 & He0 & Hs0) Hne]. exists e0. split; [|exact Hs0]. apply (removed_get _ _ _ _ _ Hrem). split; [|exact He0].
    intros ->. apply Hne. congruence.
  - intros (e0 & He0 & Hs0). apply (removed_get _ _ _ _ _ Hrem) in He0 as [Hni He0]. split; [eauto|].
    intros Heq. inversion Heq. contradiction.
Qed.

Lemma resume_inv (b : bstate) id data b' r :
  BInv b -> resume b id data = (b', r) ->
  BInv b' /\ is_panic r = false /\
  (forall j e, slab_get (b_reg b) j = Some e -> j <> id \/ r_kind e = KMany -> slab_get (b_reg b') j = Some e) /\
  length (entries (b_reg b')) = length (entries (b_reg b)).
Proof.
  intros HB Hr. pose proof (resume_spec _ _ _ _ _ core_call core_drop dec_out b id data (proj1 HB)) as Hs.
  destruct (slab_get (b_reg b) id) as [e|] eqn:Hg.
  2:{ rewrite Hs in Hr. inversion Hr; subst. split; [exact HB|]. repeat split; auto. }
  destruct (r_kind e) eqn:Hk.
  3:{ rewrite Hs in Hr. inversion Hr; subst. simpl. split; [exact HB|]. split; [apply answer_no_panic|]. auto. }
  (* a notification's or a one-shot's entry is removed *)
  all: destruct Hs as (reg' & E & Hrem); rewrite E in Hr; inversion Hr; subst; simpl.
  all: split; [eapply removed_inv; eauto|]; split; [apply answer_no_panic|].
  all: destruct Hrem as (_ & Ho & _ & _ & Hlen); split; [|exact Hlen].
  all: intros j e0 Hj Hkeep; destruct (Nat.eq_dec j id) as [->|Hne]; [|rewrite Ho; auto].
  all: rewrite Hg in Hj; inversion Hj; subst e0; destruct Hkeep; congruence.
Qed.

Theorem step_inv (b : bstate) i b' r : BInv b -> bridge_step b i = (b', r) -> BInv b'.
Proof.
  intros HB. apply bridge_step_inv; [exact HB| |intros b1 c effs; apply finish_inv].
  intros id data b1 r1 _ Er. eapply resume_inv; eauto.
Qed.

Theorem run_inv : forall is b, BInv b -> BInv (snd (bridge_run b is)).
Proof.
  intros is b. apply bridge_run_invariant with (ok := fun _ => True); auto.
  intros b0 i _ HB. eapply step_inv; [exact HB|apply surjective_pairing].
Qed.

Lemma register_all_panic : forall (effs : list eff) reg seq log,
  wf reg -> register_all reg seq log effs = Panic ->
  (U32_LIMIT < N.of_nat (length (entries reg)) + N.of_nat (length effs))%N.
Proof.
  induction effs as [|e rest IH]; intros reg seq log Hwf Hr; simpl in Hr; [discriminate|].
  unfold register in Hr.
  destruct (insert_spec reg (mkR (e_kind e) (e_h e) (e_op e) seq) Hwf) as (reg1 & E1 & _ & _ & _ & Hwf1).
  rewrite E1 in Hr. pose proof (wf_next_le _ Hwf) as Hle.
  destruct (N.ltb_spec (N.of_nat (next reg)) U32_LIMIT) as [Hlt|Hge].
  - destruct (register_all reg1 (S seq) (log ++ [Issue seq (next reg)]) rest) as [[[[? ?] ?] ?]| | |] eqn:E2; try discriminate.
    apply IH in E2; auto. apply insert_length in E1. simpl length. lia.
  - simpl length. lia.
Qed.

Theorem step_panic_overflow (b : bstate) i b' r :
  BInv b -> bridge_step b i = (b', r) -> is_panic r = true ->
  exists effs : list eff, (U32_LIMIT < N.of_nat (length (entries (b_reg b))) + N.of_nat (length effs))%N.
Proof.
  intros HB Hs Hp.
  assert (Hfin : forall b1 c effs, wf (b_reg b1) -> finish b1 c effs = (b', r) ->
            (U32_LIMIT < N.of_nat (length (entries (b_reg b1))) + N.of_nat (length effs))%N).
  { intros b1 c effs Hwf Hf.
    destruct (finish_cases _ _ _ _ enc_reqs b1 c effs Hwf) as [[E _]|(reg & seq & log & reqs & _ & E)];
      [eapply register_all_panic; eauto|].
    rewrite E in Hf. inversion Hf; subst. discriminate. }
  destruct i as [data|id data|]; simpl in Hs.
  - destruct (dec_event data) as [[ev rest]|]; [|inversion Hs; subst; discriminate].
    destruct (core_event (b_core b) ev) as [c effs]. exists effs. eapply Hfin; eauto. apply HB.
  - destruct (resume b id data) as [b1 r1] eqn:Er.
    destruct (resume_inv _ _ _ _ _ HB Er) as (HB1 & Hnp & _ & Hlen).
    destruct r1; try (inversion Hs; subst; discriminate).
    destruct (core_process (b_core b1)) as [c effs]. exists effs. rewrite <- Hlen. eapply Hfin; eauto. apply HB1.
  - inversion Hs; subst; discriminate.
Qed.

End RegistryProofs.

Lemma BInv_init (cstate op handle : Type) (c : cstate) : BInv cstate op handle (bridge_init cstate op handle c).
Proof.
  split; [apply wf_empty|]. split; [|constructor].
  intros s i. simpl. split; [tauto|]. intros (e & He & _). destruct i; discriminate.
Qed.
