(* The request layer: its invariants (privacy of a request's channel, accepted = delivered ++ buffered,
   one-shot channels carry at most one value), and laws saying what one action does to the request and to
   the channel at each index, from which the arity, routing and release theorems of C02 and C13 follow. *)
From Coq Require Import List Arith Bool ZArith NArith Lia.
From Crux Require Import Base.Res Bridge.Slab Bridge.ListFacts Bridge.Bridge Bridge.Resolve.
Import ListNotations.

Definition chan_ok (c : chan) : Prop :=
  (exists rest, ch_acc c = ch_del c ++ rest /\ (ch_rx c = true -> rest = ch_buf c)) /\
  ch_taken c = length (ch_del c) /\
  (ch_stream c = false -> (ch_tx c = true -> ch_acc c = []) /\ length (ch_acc c) <= 1).

Definition is_many (r : resolve) : bool := match r with RMany _ => true | _ => false end.

Definition Inv (h : heap) : Prop :=
  (* every closure points to a live sender of a channel owned by the issuing task *)
  (forall rid q c, nth_error (h_reqs h) rid = Some q -> closure_of (q_res q) = Some c ->
     exists ch, nth_error (h_chans h) c = Some ch /\ ch_tx ch = true /\ ch_owner ch = q_owner q /\
                ch_stream ch = is_many (q_res q)) /\
  (* privacy: the sender of a channel occurs in the closure of one request only *)
  (forall r1 r2 q1 q2 c, nth_error (h_reqs h) r1 = Some q1 -> nth_error (h_reqs h) r2 = Some q2 ->
     closure_of (q_res q1) = Some c -> closure_of (q_res q2) = Some c -> r1 = r2) /\
  (forall c ch, nth_error (h_chans h) c = Some ch -> chan_ok ch).

Lemma Inv_empty : Inv heap_empty.
Proof.
  split; [|split].
  - intros [|rid] q c H; discriminate.
  - intros [|r1] r2 q1 q2 c H; discriminate.
  - intros [|c] ch H; discriminate.
Qed.

Definition sent (c : chan) (v : N) : chan :=
  mkChan (ch_buf c ++ [v]) true (ch_tx c) (ch_stream c) (ch_limit c) (ch_taken c) (ch_owner c) (ch_acc c ++ [v]) (ch_del c) (ch_legacy c).
Definition closed (c : chan) : chan :=
  mkChan (ch_buf c) (ch_rx c) false (ch_stream c) (ch_limit c) (ch_taken c) (ch_owner c) (ch_acc c) (ch_del c) (ch_legacy c).

Lemma chan_send_nth chs cid v j :
  nth_error (fst (chan_send chs cid v)) j =
  if Nat.eqb j cid then option_map (fun c => if ch_rx c then sent c v else c) (nth_error chs cid)
  else nth_error chs j.
Proof.
  unfold chan_send. destruct (nth_error chs cid) as [c|] eqn:E; [destruct (ch_rx c) eqn:Hrx|]; simpl.
  - rewrite nth_error_upd, E. simpl. rewrite Hrx. reflexivity.
  - destruct (Nat.eqb_spec j cid) as [->|]; [rewrite E; simpl; rewrite Hrx|]; reflexivity.
  - destruct (Nat.eqb_spec j cid) as [->|]; [exact E|reflexivity].
Qed.

Lemma chan_close_tx_nth chs cid j :
  nth_error (chan_close_tx chs cid) j =
  if Nat.eqb j cid then option_map closed (nth_error chs cid) else nth_error chs j.
Proof.
  unfold chan_close_tx. destruct (nth_error chs cid) as [c|] eqn:E.
  - rewrite nth_error_upd, E. reflexivity.
  - destruct (Nat.eqb_spec j cid) as [->|]; [exact E|reflexivity].
Qed.

Lemma chan_ok_send_stream c v : chan_ok c -> ch_rx c = true -> ch_stream c = true -> chan_ok (sent c v).
Proof.
  intros ((rest & Hacc & Hrx) & Htk & Honce) Halive Hs. split; [|split]; simpl.
  - exists (ch_buf c ++ [v]). split; [|auto]. rewrite Hacc, (Hrx Halive), app_assoc. reflexivity.
  - exact Htk.
  - congruence.
Qed.

Lemma chan_ok_closed c : chan_ok c -> chan_ok (closed c).
Proof.
  intros (Hacc & Htk & Honce). split; [|split]; simpl; auto.
  intros Hs. destruct (Honce Hs) as [_ H2]. split; [discriminate|exact H2].
Qed.

Lemma chan_ok_send_close_once c v : chan_ok c -> ch_rx c = true -> ch_stream c = false -> ch_tx c = true ->
  chan_ok (closed (sent c v)).
Proof.
  intros ((rest & Hacc & Hrx) & Htk & Honce) Halive Hs Htx. split; [|split]; simpl.
  - exists (ch_buf c ++ [v]). split; [|auto]. rewrite Hacc, (Hrx Halive), app_assoc. reflexivity.
  - exact Htk.
  - intros _. split; [discriminate|]. destruct (Honce Hs) as [H1 _]. rewrite (H1 Htx). simpl. lia.
Qed.

Lemma chan_ok_kill c : chan_ok c -> chan_ok (kill c).
Proof.
  intros ((rest & Hacc & Hrx) & Htk & Honce). split; [|split]; simpl; auto.
  exists rest. split; [exact Hacc|discriminate].
Qed.

Lemma take_n_firstn n l : take_n n l = (firstn n l, skipn n l).
Proof. revert l; induction n as [|n IH]; intros [|x r]; simpl; auto. rewrite IH. reflexivity. Qed.

Definition room (c : chan) : nat := match ch_limit c with Some l => l - ch_taken c | None => length (ch_buf c) end.

(* the consumer ends in this run: it has taken its last value, or nothing is left and the sender has hung up *)
Definition ends (c : chan) : bool :=
  match ch_limit c with Some l => Nat.leb l (ch_taken c + length (firstn (room c) (ch_buf c))) | None => false end
  || negb (ch_tx c) && negb (ch_legacy c) && match skipn (room c) (ch_buf c) with [] => true | _ => false end.

Lemma consume_dead c : ch_rx c = false -> consume c = (c, []).
Proof. intros H. unfold consume. rewrite H. reflexivity. Qed.

Lemma consume_alive c : ch_rx c = true ->
  let got := firstn (room c) (ch_buf c) in
  consume c =
  (mkChan (if ends c then [] else skipn (room c) (ch_buf c)) (negb (ends c)) (ch_tx c) (ch_stream c) (ch_limit c)
          (ch_taken c + length got) (ch_owner c) (ch_acc c) (ch_del c ++ got) (ch_legacy c),
   map (fun v => (ch_owner c, v)) got ++ (if ends c && ch_stream c then [(ch_owner c, ENDED)] else [])).
Proof.
  intros Hrx. unfold consume, ends. fold (room c). rewrite Hrx, take_n_firstn. simpl.
  destruct (match ch_limit c with Some l => Nat.leb l _ | None => false end); simpl; [reflexivity|].
  destruct (ch_tx c); simpl; [rewrite app_nil_r; reflexivity|].
  destruct (negb (ch_legacy c) && _); simpl; [|rewrite app_nil_r]; reflexivity.
Qed.

Lemma consume_static c :
  ch_tx (fst (consume c)) = ch_tx c /\ ch_owner (fst (consume c)) = ch_owner c /\
  ch_stream (fst (consume c)) = ch_stream c /\ ch_acc (fst (consume c)) = ch_acc c /\
  ch_legacy (fst (consume c)) = ch_legacy c.
Proof. destruct (ch_rx c) eqn:Hrx; [rewrite consume_alive|rewrite consume_dead]; simpl; auto 6. Qed.

Lemma consume_ok c : chan_ok c -> chan_ok (fst (consume c)).
Proof.
  intros Hok. destruct (ch_rx c) eqn:Hrx; [|rewrite consume_dead; auto].
  destruct Hok as ((rest & Hacc & Hbuf) & Htk & Honce). rewrite consume_alive by exact Hrx.
  split; [|split]; simpl.
  - exists (skipn (room c) (ch_buf c)). rewrite <- app_assoc, firstn_skipn, <- (Hbuf Hrx). split; [exact Hacc|].
    destruct (ends c); [discriminate|reflexivity].
  - rewrite app_length. lia.
  - exact Honce.
Qed.

Lemma consume_events c o v : In (o, v) (snd (consume c)) ->
  ch_rx c = true /\ o = ch_owner c /\
  exists got rest, ch_buf c = got ++ rest /\ ch_del (fst (consume c)) = ch_del c ++ got /\ (In v got \/ v = ENDED).
Proof.
  destruct (ch_rx c) eqn:Hrx; [|rewrite consume_dead by exact Hrx; intros []].
  rewrite consume_alive by exact Hrx. simpl. intros Hin. split; [reflexivity|].
  assert (Hov : o = ch_owner c /\ (In v (firstn (room c) (ch_buf c)) \/ v = ENDED)).
  { apply in_app_or in Hin as [Hin|Hin].
    - apply in_map_iff in Hin as (x & Hx & Hin). inversion Hx; subst. auto.
    - destruct (ends c && ch_stream c); [destruct Hin as [Hin|[]]; inversion Hin; auto|destruct Hin]. }
  destruct Hov as [Ho Hv]. split; [exact Ho|].
  exists (firstn (room c) (ch_buf c)), (skipn (room c) (ch_buf c)). rewrite firstn_skipn. auto.
Qed.

(* a legacy future survives its sender: nothing wakes it *)
Lemma consume_survivor c : ch_rx (fst (consume c)) = true ->
  ch_buf (fst (consume c)) = [] /\ (ch_tx c = true \/ ch_legacy c = true).
Proof.
  destruct (ch_rx c) eqn:Hrx; [|rewrite consume_dead by exact Hrx; simpl; congruence].
  rewrite consume_alive by exact Hrx. simpl. unfold ends. intros He. apply negb_true_iff, orb_false_iff in He as [Hfull Hup].
  assert (Hrest : skipn (room c) (ch_buf c) = []).
  { apply skipn_all2. unfold room in *. destruct (ch_limit c) as [l|]; [|lia].
    apply Nat.leb_gt in Hfull. rewrite firstn_length in Hfull. lia. }
  rewrite Hrest in *. rewrite andb_true_r in Hup. split; [destruct (_ || _); reflexivity|].
  destruct (ch_tx c); [auto|]. destruct (ch_legacy c); [auto|discriminate].
Qed.

Lemma poll_chans_nth : forall chs k,
  nth_error (fst (poll_chans chs)) k = option_map (fun c => fst (consume c)) (nth_error chs k).
Proof.
  induction chs as [|c rest IH]; intros k; simpl.
  - destruct k; reflexivity.
  - destruct (consume c) as [c' ev] eqn:Ec. destruct (poll_chans rest) as [rest' evs] eqn:Ep. simpl.
    destruct k; simpl; [rewrite Ec; reflexivity|]. exact (IH k).
Qed.

Lemma poll_chans_events : forall chs o v,
  In (o, v) (snd (poll_chans chs)) -> exists k c, nth_error chs k = Some c /\ In (o, v) (snd (consume c)).
Proof.
  induction chs as [|c rest IH]; intros o v Hin; simpl in Hin; [contradiction|].
  destruct (consume c) as [c' ev] eqn:Ec. destruct (poll_chans rest) as [rest' evs] eqn:Ep. simpl in Hin.
  apply in_app_or in Hin as [Hin|Hin].
  - exists 0, c. rewrite Ec. auto.
  - destruct (IH o v) as (k & c0 & Hk & Hc0); [exact Hin|]. exists (S k), c0. auto.
Qed.

Lemma nth_error_map_kill chs k : nth_error (map kill chs) k = option_map kill (nth_error chs k).
Proof. apply nth_error_map. Qed.

Lemma set_req_nth (h : heap) rid r j :
  nth_error (set_req h rid r) j =
  if Nat.eqb j rid then option_map (fun q => mkCell r (q_owner q) (q_kind q)) (nth_error (h_reqs h) rid)
  else nth_error (h_reqs h) j.
Proof.
  unfold set_req. destruct (nth_error (h_reqs h) rid) as [q|] eqn:E.
  - rewrite nth_error_upd, E. reflexivity.
  - destruct (Nat.eqb_spec j rid) as [->|]; auto.
Qed.

Lemma heap_eta h : mkHeap (h_reqs h) (h_chans h) (h_aborted h) = h.
Proof. destruct h; reflexivity. Qed.

Lemma set_req_same (h : heap) rid q : nth_error (h_reqs h) rid = Some q -> set_req h rid (q_res q) = h_reqs h.
Proof. intros Hq. unfold set_req. rewrite Hq. apply upd_same. rewrite Hq. destruct q; reflexivity. Qed.

(* C02_serialized_mirrors: the serialized callback is the typed callback composed with decoding *)
Lemma serialized_mirrors r chs v :
  sresolve_step (deserializing r) chs (Some v) =
  let '(r', chs', res) := resolve_step r chs v in (deserializing r', chs', res).
Proof.
  destruct r as [|c|c]; simpl; auto.
  - destruct (chan_send chs c v); reflexivity.
  - destruct (chan_send chs c v); reflexivity.
Qed.

Lemma serialized_undecodable r chs :
  sresolve_step (deserializing r) chs None =
  match r with
  | RNever => (SNever, chs, Err E_Never)
  | ROnce c => (SNever, chan_close_tx chs c, Err E_DeserializeOutput)
  | RMany c => (SMany c, chs, Err E_DeserializeOutput)
  end.
Proof. destruct r; reflexivity. Qed.

(* What can be done to a request: its callback is run on a value, or is dropped because the response does
   not decode, or is dropped by the shell.  Typed and serialized resolution differ in the answer only. *)
Inductive deed : Type := DSend (v : N) | DFail | DDrop.

Definition own_res (d : deed) (r : resolve) : resolve :=
  match d, r with DDrop, _ => RNever | _, ROnce _ => RNever | _, _ => r end.

Definition own_chan (d : deed) (r : resolve) (c : chan) : chan :=
  match r, d with
  | RNever, _ | RMany _, DFail => c
  | ROnce _, DSend v => closed (if ch_rx c then sent c v else c)
  | RMany _, DSend v => if ch_rx c then sent c v else c
  | _, _ => closed c
  end.

Definition owned (r : resolve) (j : nat) : bool :=
  match closure_of r with Some c => Nat.eqb j c | None => false end.

Lemma owned_closure r j : owned r j = true <-> closure_of r = Some j.
Proof.
  unfold owned. destruct (closure_of r) as [c|]; [|split; discriminate].
  rewrite Nat.eqb_eq. split; congruence.
Qed.

Lemma resolve_step_nth r chs v j :
  nth_error (snd (fst (resolve_step r chs v))) j =
  if owned r j then option_map (own_chan (DSend v) r) (nth_error chs j) else nth_error chs j.
Proof.
  unfold owned. destruct r as [|c|c]; simpl; [reflexivity| |];
    pose proof (chan_send_nth chs c v) as Hs; destruct (chan_send chs c v) as [chs1 ok]; simpl in *.
  - rewrite chan_close_tx_nth, !Hs, Nat.eqb_refl.
    destruct (Nat.eqb_spec j c) as [->|]; [destruct (nth_error chs c)|]; reflexivity.
  - rewrite Hs. destruct (Nat.eqb_spec j c) as [->|]; reflexivity.
Qed.

Lemma sresolve_step_frame s chs body : forall c,
  (match s with SNever => None | SOnce x => Some x | SMany x => Some x end) <> Some c ->
  nth_error (snd (fst (sresolve_step s chs body))) c = nth_error chs c.
Proof.
  intros c Hc. set (r := match s with SNever => RNever | SOnce x => ROnce x | SMany x => RMany x end).
  assert (Ho : owned r c = false).
  { destruct (owned r c) eqn:E; [|reflexivity]. apply owned_closure in E. destruct s; simpl in *; congruence. }
  replace s with (deserializing r) by (destruct s; reflexivity). destruct body as [v|].
  - rewrite serialized_mirrors. pose proof (resolve_step_nth r chs v c) as E.
    destruct (resolve_step r chs v) as [[r' chs'] res]. simpl in *. rewrite E, Ho. reflexivity.
  - rewrite serialized_undecodable. destruct r as [|x|x]; simpl; try reflexivity.
    rewrite chan_close_tx_nth. unfold owned in Ho. simpl in Ho. rewrite Ho. reflexivity.
Qed.

Definition deed_of (a : action) : option (nat * deed) :=
  match a with
  | AResolve rid v | ASerResolve rid (Some v) => Some (rid, DSend v)
  | ASerResolve rid None => Some (rid, DFail)
  | ADropReq rid => Some (rid, DDrop)
  | _ => None
  end.

Lemma step_resolve h rid v q : nth_error (h_reqs h) rid = Some q ->
  step h (AResolve rid v) =
  (mkHeap (set_req h rid (own_res (DSend v) (q_res q))) (snd (fst (resolve_step (q_res q) (h_chans h) v))) (h_aborted h),
   mkOut (snd (resolve_step (q_res q) (h_chans h) v)) [] None).
Proof.
  intros Hq. simpl. rewrite Hq. destruct (q_res q) as [|c|c]; simpl; [reflexivity| |];
    destruct (chan_send (h_chans h) c v); reflexivity.
Qed.

Lemma step_ser_decoded h rid v : fst (step h (ASerResolve rid (Some v))) = fst (step h (AResolve rid v)).
Proof.
  simpl. destruct (nth_error (h_reqs h) rid) as [q|]; [|reflexivity]. rewrite serialized_mirrors.
  destruct (resolve_step (q_res q) (h_chans h) v) as [[r' chs'] res]. destruct r'; reflexivity.
Qed.

Definition after_deed (h : heap) (rid : nat) (d : deed) (h' : heap) : Prop :=
  match nth_error (h_reqs h) rid with
  | Some q =>
      h_reqs h' = set_req h rid (own_res d (q_res q)) /\
      forall j, nth_error (h_chans h') j =
                if owned (q_res q) j then option_map (own_chan d (q_res q)) (nth_error (h_chans h) j)
                else nth_error (h_chans h) j
  | None => h' = h
  end.

Lemma step_deed h a rid d : deed_of a = Some (rid, d) -> after_deed h rid d (fst (step h a)).
Proof.
  intros Ea. unfold after_deed.
  assert (Hsend : forall v, after_deed h rid (DSend v) (fst (step h (AResolve rid v)))).
  { intros v. unfold after_deed. destruct (nth_error (h_reqs h) rid) as [q|] eqn:Hq; [|simpl; rewrite Hq; reflexivity].
    rewrite (step_resolve h rid v q Hq). split; [reflexivity|apply resolve_step_nth]. }
  destruct a as [|k v|k [v|]|k| | |]; inversion Ea; subst; [apply Hsend|rewrite step_ser_decoded; apply Hsend|clear Hsend..].
  - simpl. destruct (nth_error (h_reqs h) rid) as [q|]; [|reflexivity]. rewrite serialized_undecodable.
    unfold owned. destruct (q_res q) as [|c|c]; simpl; (split; [reflexivity|intros j]); [reflexivity| |].
    + rewrite chan_close_tx_nth. destruct (Nat.eqb_spec j c) as [->|]; reflexivity.
    + destruct (Nat.eqb j c); [destruct (nth_error (h_chans h) j)|]; reflexivity.
  - simpl. destruct (nth_error (h_reqs h) rid) as [q|]; [|reflexivity]. simpl.
    unfold owned. destruct (q_res q) as [|c|c]; simpl; (split; [reflexivity|intros j]); [reflexivity| |];
      rewrite chan_close_tx_nth; destruct (Nat.eqb_spec j c) as [->|]; reflexivity.
Qed.

Definition res_after (a : action) (rid : nat) (r : resolve) : resolve :=
  match deed_of a with Some (k, d) => if Nat.eqb rid k then own_res d r else r | None => r end.

Definition chan_after (h : heap) (a : action) (j : nat) (c : chan) : chan :=
  match deed_of a with
  | Some (rid, d) =>
      match nth_error (h_reqs h) rid with Some q => if owned (q_res q) j then own_chan d (q_res q) c else c | None => c end
  | None => match a with APoll => if h_aborted h then kill c else fst (consume c) | ADropAll => kill c | _ => c end
  end.

Definition new_res (h : heap) (k : rkind) : resolve :=
  match k with KNever => RNever | KOnce => ROnce (length (h_chans h)) | KMany => RMany (length (h_chans h)) end.

Definition new_req (h : heap) (a : action) : option rcell :=
  match a with AIssue owner k _ _ => Some (mkCell (new_res h k) owner k) | _ => None end.

Definition new_chan_of (a : action) : option chan :=
  match a with
  | AIssue owner KOnce _ legacy => Some (new_chan owner false (Some 1) legacy)
  | AIssue owner KMany limit legacy => Some (new_chan owner true limit legacy)
  | _ => None
  end.

Lemma if_same {A} (b : bool) (x : A) : (if b then x else x) = x.
Proof. destruct b; reflexivity. Qed.

Lemma cell_eta (reqs : list rcell) rid :
  nth_error reqs rid = match nth_error reqs rid with Some q => Some (mkCell (q_res q) (q_owner q) (q_kind q)) | None => None end.
Proof. destruct (nth_error reqs rid) as [[]|]; reflexivity. Qed.

Lemma step_req_nth h a rid :
  nth_error (h_reqs (fst (step h a))) rid =
  match nth_error (h_reqs h) rid with
  | Some q => Some (mkCell (res_after a rid (q_res q)) (q_owner q) (q_kind q))
  | None => if Nat.eqb rid (length (h_reqs h)) then new_req h a else None
  end.
Proof.
  unfold res_after. destruct (deed_of a) as [[k d]|] eqn:Ea.
  - assert (Hnew : new_req h a = None) by (destruct a; try discriminate Ea; reflexivity). rewrite Hnew, if_same.
    pose proof (step_deed h a k d Ea) as Hs. unfold after_deed in Hs. destruct (nth_error (h_reqs h) k) as [q0|] eqn:Hq0.
    + destruct Hs as [-> _]. rewrite set_req_nth. destruct (Nat.eqb_spec rid k) as [->|]; [|apply cell_eta].
      rewrite Hq0. reflexivity.
    + rewrite Hs. destruct (Nat.eqb_spec rid k) as [->|]; [|apply cell_eta]. rewrite Hq0. reflexivity.
  - destruct a as [owner k limit legacy| |? [|]| | | |]; try discriminate Ea; simpl; rewrite ?if_same; try apply cell_eta.
    + replace (h_reqs (fst _)) with (h_reqs h ++ [mkCell (new_res h k) owner k]) by (destruct k; reflexivity).
      rewrite nth_error_snoc_old. destruct (nth_error (h_reqs h) rid) as [[]|]; reflexivity.
    + destruct (h_aborted h); [|destruct (poll_chans (h_chans h))]; apply cell_eta.
Qed.

Lemma step_chan_nth h a j :
  nth_error (h_chans (fst (step h a))) j =
  match nth_error (h_chans h) j with
  | Some c => Some (chan_after h a j c)
  | None => if Nat.eqb j (length (h_chans h)) then new_chan_of a else None
  end.
Proof.
  unfold chan_after. destruct (deed_of a) as [[k d]|] eqn:Ea.
  - assert (Hnew : new_chan_of a = None) by (destruct a; try discriminate Ea; reflexivity). rewrite Hnew, if_same.
    pose proof (step_deed h a k d Ea) as Hs. unfold after_deed in Hs. destruct (nth_error (h_reqs h) k) as [q|].
    + destruct Hs as [_ ->]. destruct (owned (q_res q) j), (nth_error (h_chans h) j); reflexivity.
    + rewrite Hs. destruct (nth_error (h_chans h) j); reflexivity.
  - destruct a as [owner k limit legacy| |? [|]| | | |]; try discriminate Ea; simpl; rewrite ?if_same.
    + destruct k; simpl; rewrite ?if_same, ?nth_error_snoc_old; destruct (nth_error (h_chans h) j); reflexivity.
    + destruct (h_aborted h); simpl.
      * rewrite nth_error_map. destruct (nth_error (h_chans h) j); reflexivity.
      * pose proof (poll_chans_nth (h_chans h) j) as Hn. destruct (poll_chans (h_chans h)). simpl in *.
        rewrite Hn. destruct (nth_error (h_chans h) j); reflexivity.
    + destruct (nth_error (h_chans h) j); reflexivity.
    + rewrite nth_error_map. destruct (nth_error (h_chans h) j); reflexivity.
Qed.

Lemma step_poll_chan_nth h j : h_aborted h = false ->
  nth_error (h_chans (fst (step h APoll))) j = option_map (fun c => fst (consume c)) (nth_error (h_chans h) j).
Proof.
  intros Hab. rewrite step_chan_nth. unfold chan_after. simpl. rewrite Hab.
  destruct (nth_error (h_chans h) j); [|destruct (Nat.eqb _ _)]; reflexivity.
Qed.

Lemma res_after_closure a rid r c : closure_of (res_after a rid r) = Some c -> res_after a rid r = r.
Proof.
  unfold res_after. destruct (deed_of a) as [[k d]|]; [|reflexivity]. destruct (Nat.eqb rid k); [|reflexivity].
  destruct d, r; simpl; congruence.
Qed.

Lemma chan_after_cases h a j c :
  chan_after h a j c = c \/ chan_after h a j c = kill c \/ chan_after h a j c = fst (consume c) \/
  exists rid d q, deed_of a = Some (rid, d) /\ nth_error (h_reqs h) rid = Some q /\ closure_of (q_res q) = Some j /\
                  chan_after h a j c = own_chan d (q_res q) c.
Proof.
  unfold chan_after. destruct (deed_of a) as [[rid d]|] eqn:Ea.
  - destruct (nth_error (h_reqs h) rid) as [q|] eqn:Hq; [|auto]. destruct (owned (q_res q) j) eqn:Ho; [|auto].
    apply owned_closure in Ho. right; right; right. exists rid, d, q. auto.
  - destruct a; auto. destruct (h_aborted h); auto.
Qed.

Lemma chan_after_static h a j c :
  ch_owner (chan_after h a j c) = ch_owner c /\ ch_stream (chan_after h a j c) = ch_stream c.
Proof.
  destruct (chan_after_cases h a j c) as [E|[E|[E|(rid & d & q & _ & _ & _ & E)]]]; rewrite E; auto.
  - destruct (consume_static c) as (_ & Ho & Hs & _). auto.
  - destruct d, (q_res q); simpl; try destruct (ch_rx c); auto.
Qed.

Lemma chan_after_tx_mono h a j c : ch_tx (chan_after h a j c) = true -> ch_tx c = true.
Proof.
  destruct (chan_after_cases h a j c) as [E|[E|[E|(rid & d & q & _ & _ & _ & E)]]]; rewrite E; auto.
  - destruct (consume_static c) as (Ht & _). congruence.
  - destruct d, (q_res q); simpl; try destruct (ch_rx c); auto; discriminate.
Qed.

Lemma chan_after_tx h a rid q j c : Inv h -> nth_error (h_reqs h) rid = Some q -> closure_of (q_res q) = Some j ->
  ch_tx (chan_after h a j c) = match closure_of (res_after a rid (q_res q)) with Some _ => ch_tx c | None => false end.
Proof.
  intros (_ & H2 & _) Hq Hc. unfold chan_after, res_after. destruct (deed_of a) as [[k d]|].
  - destruct (Nat.eqb_spec rid k) as [<-|Hne].
    + rewrite Hq, (proj2 (owned_closure _ _) Hc). destruct d, (q_res q); simpl in *; try discriminate;
        try destruct (ch_rx c); reflexivity.
    + rewrite Hc. destruct (nth_error (h_reqs h) k) as [q0|] eqn:Hq0; [|reflexivity].
      destruct (owned (q_res q0) j) eqn:Ho; [|reflexivity]. apply owned_closure in Ho.
      elim Hne. eapply H2; eauto.
  - rewrite Hc. destruct a; auto. destruct (h_aborted h); [reflexivity|]. apply consume_static.
Qed.

Lemma chan_after_ok h a j c : Inv h -> nth_error (h_chans h) j = Some c -> chan_ok (chan_after h a j c).
Proof.
  intros (H1 & _ & H3) Hc. pose proof (H3 j c Hc) as Hok.
  destruct (chan_after_cases h a j c) as [E|[E|[E|(rid & d & q & _ & Hq & Hcl & E)]]]; rewrite E; auto.
  - apply chan_ok_kill, Hok.
  - apply consume_ok, Hok.
  - destruct (H1 rid q j Hq Hcl) as (c' & Hc' & Htx & _ & Hs). rewrite Hc in Hc'. inversion Hc'; subst c'.
    destruct (q_res q), d; simpl in *; auto using chan_ok_closed; destruct (ch_rx c) eqn:Hrx;
      auto using chan_ok_closed, chan_ok_send_close_once, chan_ok_send_stream.
Qed.

Lemma step_req_origin h a rid q' c :
  nth_error (h_reqs (fst (step h a))) rid = Some q' -> closure_of (q_res q') = Some c ->
  (nth_error (h_reqs h) rid = Some q' /\ res_after a rid (q_res q') = q_res q') \/
  (rid = length (h_reqs h) /\ new_req h a = Some q' /\ c = length (h_chans h)).
Proof.
  intros Hq' Hc. rewrite step_req_nth in Hq'. destruct (nth_error (h_reqs h) rid) as [q|] eqn:Hq.
  - left. inversion Hq'; subst q'. simpl in Hc. apply res_after_closure in Hc. rewrite Hc. destruct q; auto.
  - right. destruct (Nat.eqb_spec rid (length (h_reqs h))); [|discriminate]. split; [assumption|]. split; [assumption|].
    destruct a as [owner k limit legacy| | | | | |]; try discriminate Hq'. inversion Hq'; subst q'.
    destruct k; simpl in Hc; congruence.
Qed.

Theorem step_Inv (h : heap) (a : action) : Inv h -> Inv (fst (step h a)).
Proof.
  intros HI. pose proof HI as (H1 & H2 & H3).
  assert (Hold : forall rid q c, nth_error (h_reqs h) rid = Some q -> closure_of (q_res q) = Some c -> c <> length (h_chans h)).
  { intros rid q c Hq Hc ->. destruct (H1 _ _ _ Hq Hc) as (ch & Hch & _). apply nth_error_lt in Hch. lia. }
  split; [|split].
  - intros rid q c Hq' Hc. rewrite step_chan_nth.
    destruct (step_req_origin h a rid q c Hq' Hc) as [[Hq Hkeep]|(-> & Hnew & ->)].
    + destruct (H1 rid q c Hq Hc) as (ch & Hch & Htx & Ho & Hs). rewrite Hch. eexists; split; [reflexivity|].
      rewrite (chan_after_tx h a rid q c ch HI Hq Hc), Hkeep, Hc. destruct (chan_after_static h a c ch) as [-> ->]. auto.
    + rewrite (proj2 (nth_error_None _ _) (le_n _)), Nat.eqb_refl.
      destruct a as [owner k limit legacy| | | | | |]; try discriminate Hnew. inversion Hnew; subst q.
      destruct k; try discriminate Hc; (eexists; split; [reflexivity|simpl; auto]).
  - intros r1 r2 q1 q2 c Hq1 Hq2 Hc1 Hc2.
    destruct (step_req_origin h a r1 q1 c Hq1 Hc1) as [[Hq1' _]|(-> & _ & Hc1')],
             (step_req_origin h a r2 q2 c Hq2 Hc2) as [[Hq2' _]|(-> & _ & Hc2')]; try reflexivity.
    + eapply H2; eauto.
    + elim (Hold _ _ _ Hq1' Hc1 Hc2').
    + elim (Hold _ _ _ Hq2' Hc2 Hc1').
  - intros c ch' Hc'. rewrite step_chan_nth in Hc'. destruct (nth_error (h_chans h) c) as [ch|] eqn:Hch.
    + inversion Hc'; subst ch'. apply chan_after_ok; assumption.
    + destruct (Nat.eqb c (length (h_chans h))); [|discriminate].
      destruct a as [owner [| |] limit legacy| | | | | |]; try discriminate Hc'; inversion Hc'; subst ch';
        (split; [exists []; simpl; auto|split; simpl; auto]).
Qed.

Lemma run_invariant (ok : action -> Prop) (P : heap -> Prop) :
  (forall h a, ok a -> P h -> P (fst (step h a))) ->
  forall acts h, (forall a, In a acts -> ok a) -> P h -> P (fst (run h acts)).
Proof.
  intros Hstep. induction acts as [|a rest IH]; intros h Hok HP; simpl; [exact HP|].
  pose proof (Hstep h a (Hok a (or_introl eq_refl)) HP) as H1. destruct (step h a) as [h1 o].
  specialize (IH h1 (fun a0 Ha0 => Hok a0 (or_intror Ha0)) H1). destruct (run h1 rest). exact IH.
Qed.

Theorem run_Inv : forall acts h, Inv h -> Inv (fst (run h acts)).
Proof. intros acts h. apply (run_invariant (fun _ => True)); auto using step_Inv. Qed.

Lemma chan_after_dead h a j c : ch_rx c = false ->
  ch_rx (chan_after h a j c) = false /\ ch_del (chan_after h a j c) = ch_del c /\ ch_acc (chan_after h a j c) = ch_acc c.
Proof.
  intros Hrx. destruct (chan_after_cases h a j c) as [E|[E|[E|(rid & d & q & _ & _ & _ & E)]]]; rewrite E; auto.
  - rewrite consume_dead by exact Hrx. auto.
  - destruct d, (q_res q); simpl; rewrite ?Hrx; auto.
Qed.

Theorem rx_dead_stable : forall acts h c ch,
  nth_error (h_chans h) c = Some ch -> ch_rx ch = false ->
  exists ch', nth_error (h_chans (fst (run h acts))) c = Some ch' /\ ch_rx ch' = false /\ ch_del ch' = ch_del ch /\
              ch_acc ch' = ch_acc ch.
Proof.
  intros acts h c ch Hch Hrx.
  apply (run_invariant (fun _ => True) (fun h => exists ch', nth_error (h_chans h) c = Some ch' /\ ch_rx ch' = false /\
                                                      ch_del ch' = ch_del ch /\ ch_acc ch' = ch_acc ch)); eauto.
  intros h0 a _ (ch1 & Hc1 & Hr1 & <- & <-). rewrite step_chan_nth, Hc1. eexists; split; [reflexivity|].
  apply chan_after_dead, Hr1.
Qed.

Lemma res_after_never a rid : res_after a rid RNever = RNever.
Proof. unfold res_after. destruct (deed_of a) as [[k d]|]; [|reflexivity]. destruct (Nat.eqb rid k), d; reflexivity. Qed.

Lemma res_after_many a rid c : a <> ADropReq rid -> res_after a rid (RMany c) = RMany c.
Proof.
  intros Hne. unfold res_after. destruct (deed_of a) as [[k d]|] eqn:Ea; [|reflexivity].
  destruct (Nat.eqb_spec rid k) as [<-|]; [|reflexivity]. destruct d; try reflexivity.
  destruct a as [| |? [|]| | | |]; inversion Ea; subst. elim Hne; reflexivity.
Qed.

(* with the two lemmas above: being Never is for ever, and a stream's callback stays until the shell drops the
   request *)
Theorem res_stable (ok : action -> Prop) rid r : (forall a, ok a -> res_after a rid r = r) ->
  forall acts h q, nth_error (h_reqs h) rid = Some q -> q_res q = r -> (forall a, In a acts -> ok a) ->
  exists q', nth_error (h_reqs (fst (run h acts))) rid = Some q' /\ q_res q' = r.
Proof.
  intros Hkeep acts h q Hq Hr Hok.
  apply (run_invariant ok (fun h => exists q', nth_error (h_reqs h) rid = Some q' /\ q_res q' = r)); eauto.
  intros h0 a Ha (q0 & Hq0 & Hr0). rewrite step_req_nth, Hq0, Hr0, (Hkeep a Ha). eauto.
Qed.

Lemma own_chan_acc d r c : ch_acc (own_chan d r c) <> ch_acc c ->
  exists v, d = DSend v /\ ch_rx c = true /\ ch_acc (own_chan d r c) = ch_acc c ++ [v] /\
            ch_buf (own_chan d r c) = ch_buf c ++ [v].
Proof.
  destruct d as [v| |], r; simpl; try (intros H; elim H; reflexivity);
    destruct (ch_rx c); simpl; intros H; try (elim H; reflexivity); exists v; auto.
Qed.

Theorem events_from_own_channel (h : heap) a o v :
  In (o, v) (o_events (snd (step h a))) ->
  a = APoll /\ exists c ch ch', nth_error (h_chans h) c = Some ch /\ nth_error (h_chans (fst (step h a))) c = Some ch' /\
     ch_owner ch = o /\ ch_rx ch = true /\ ch_acc ch' = ch_acc ch /\
     exists got rest, ch_del ch' = ch_del ch ++ got /\ ch_buf ch = got ++ rest /\ (In v got \/ v = ENDED).
Proof.
  intros Hin.
  destruct a as [owner k limit legacy|rid v0|rid body|rid| | |]; simpl in Hin.
  - destruct k; simpl in Hin; contradiction.
  - destruct (nth_error (h_reqs h) rid); [destruct (resolve_step _ _ _) as [[? ?] ?]|]; simpl in Hin; contradiction.
  - destruct (nth_error (h_reqs h) rid); [destruct (sresolve_step _ _ _) as [[? ?] ?]|]; simpl in Hin; contradiction.
  - destruct (nth_error (h_reqs h) rid); simpl in Hin; contradiction.
  - split; [reflexivity|]. destruct (h_aborted h) eqn:Hab; [simpl in Hin; contradiction|].
    pose proof (poll_chans_events (h_chans h) o v) as Hev. destruct (poll_chans (h_chans h)) as [chs' evs].
    destruct (Hev Hin) as (c & ch & Hch & Hinc).
    destruct (consume_events ch o v Hinc) as (Hrx & -> & got & rest & Hbuf & Hdel & Hv).
    exists c, ch, (fst (consume ch)). split; [exact Hch|].
    split; [rewrite step_poll_chan_nth, Hch by exact Hab; reflexivity|].
    split; [reflexivity|]. split; [exact Hrx|]. split; [apply consume_static|]. exists got, rest. auto.
  - contradiction.
  - contradiction.
Qed.
