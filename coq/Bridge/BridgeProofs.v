(* One bridge call is the image of the mirrored typed call (simulation through [translate]). *)
From Coq Require Import List Arith Bool ZArith NArith Lia.
From Crux Require Import Base.Res Bridge.Slab Bridge.SlabProofs Bridge.Bridge.
Import ListNotations.

Section BridgeProofs.
Variables (cstate event op value view handle B : Type).
Notation eff := (eff op handle).
Notation rentry := (rentry op handle).
Notation bstate := (bstate cstate op handle).
Notation tstate := (tstate cstate handle).
Notation tout := (tout op view handle).
Notation bytes := (list B).

Variable core_event : cstate -> event -> cstate * list eff.
Variable core_process : cstate -> cstate * list eff.
Variable core_call : cstate -> handle -> value -> cstate * bool.
Variable core_drop : cstate -> handle -> cstate.
Variable core_view : cstate -> view.
Variable dec_event : bytes -> option (event * bytes).
Variable dec_out : op -> bytes -> option (value * bytes).
Variable enc_reqs : list (nat * op) -> bytes.
Variable enc_view : view -> bytes.

Notation typed_step := (typed_step cstate event op value view handle core_event core_process core_call core_drop core_view).
Notation typed_opt_step := (typed_opt_step cstate event op value view handle core_event core_process core_call core_drop core_view).
Notation bridge_step := (bridge_step cstate event op value view handle B core_event core_process core_call core_drop core_view dec_event dec_out enc_reqs enc_view).
Notation resume := (resume cstate op value handle B core_call core_drop dec_out).
Notation finish := (finish cstate op handle B enc_reqs).
Notation translate := (translate cstate event op value handle B dec_event dec_out).
Notation twin_run := (twin_run cstate event op value view handle B core_event core_process core_call core_drop core_view dec_event dec_out enc_reqs enc_view).
Notation bridge_run := (bridge_run cstate event op value view handle B core_event core_process core_call core_drop core_view dec_event dec_out enc_reqs enc_view).
Notation hold := (hold op handle).

Lemma hold_length l : length (hold l) = length l.
Proof. apply map_length. Qed.

Lemma hold_app l1 l2 : hold (l1 ++ l2) = hold l1 ++ hold l2.
Proof. apply map_app. Qed.

(* [held] is the typed shell's list (Bridge.tstate): an entry is the request at place [r_seq], and no two
   entries share a place. *)
Definition RegInv (reg : slab rentry) (held : list (option (rkind * handle))) : Prop :=
  wf reg /\
  (forall id e, slab_get reg id = Some e -> nth_error held (r_seq e) = Some (Some (r_kind e, r_h e))) /\
  (forall id1 id2 e1 e2, slab_get reg id1 = Some e1 -> slab_get reg id2 = Some e2 ->
                         r_seq e1 = r_seq e2 -> id1 = id2).

Definition R (b : bstate) (t : tstate) : Prop :=
  b_core b = t_core t /\ b_seq b = length (t_held t) /\ RegInv (b_reg b) (t_held t).

Lemma RegInv_seq_lt reg held id e : RegInv reg held -> slab_get reg id = Some e -> r_seq e < length held.
Proof. intros (_ & H & _) Hg. apply H in Hg. eapply nth_error_lt; eauto. Qed.

Lemma RegInv_app reg held extra : RegInv reg held -> RegInv reg (held ++ extra).
Proof.
  intros (Hwf & Hheld & Hinj). split; [auto|]. split; [|auto].
  intros id e Hg. apply nth_error_app_Some. eauto.
Qed.

Lemma RegInv_insert reg reg' held id k h o :
  RegInv reg held -> inserted reg id (mkR k h o (length held)) reg' -> RegInv reg' (held ++ [Some (k, h)]).
Proof.
  intros HI Hins. destruct (RegInv_app _ _ [Some (k, h)] HI) as (_ & Hheld & Hinj).
  split; [apply Hins|]. split.
  - intros j en Hg. apply (inserted_get _ _ _ _ _ _ Hins) in Hg as [[_ ->]|Hg]; [|eauto].
    simpl. rewrite nth_error_snoc, Nat.eqb_refl. reflexivity.
  - intros id1 id2 e1 e2 H1 H2 Hs12.
    apply (inserted_get _ _ _ _ _ _ Hins) in H1 as [[-> ->]|H1], H2 as [[-> ->]|H2]; [reflexivity| | |eauto].
    + pose proof (RegInv_seq_lt _ _ _ _ HI H2). simpl in Hs12. lia.
    + pose proof (RegInv_seq_lt _ _ _ _ HI H1). simpl in Hs12. lia.
Qed.

Lemma RegInv_forget reg reg' held id e x :
  RegInv reg held -> slab_get reg id = Some e -> removed reg id reg' -> RegInv reg' (upd held (r_seq e) x).
Proof.
  intros (Hwf & Hheld & Hinj) Hg Hrem. split; [apply Hrem|]. split.
  - intros id' e' Hg'. apply (removed_get _ _ _ _ _ Hrem) in Hg' as [Hne Hg'].
    rewrite nth_error_upd_other; [eauto|]. intros Heq. apply Hne. eapply Hinj; eauto.
  - intros id1 id2 e1 e2 H1 H2. apply (removed_get _ _ _ _ _ Hrem) in H1 as [_ H1], H2 as [_ H2]. eauto.
Qed.

Lemma register_spec (reg : slab rentry) seq (e : eff) : wf reg ->
  register reg seq e = Panic \/
  exists reg', register reg seq e = Ok (reg', next reg) /\ N.lt (N.of_nat (next reg)) U32_LIMIT /\
               inserted reg (next reg) (mkR (e_kind e) (e_h e) (e_op e) seq) reg'.
Proof.
  intros Hwf. unfold register.
  destruct (insert_spec reg (mkR (e_kind e) (e_h e) (e_op e) seq) Hwf) as (reg' & E & Hins).
  rewrite E. destruct (N.ltb_spec (N.of_nat (next reg)) U32_LIMIT) as [Hlt|Hge]; [right|left; reflexivity].
  exists reg'. auto.
Qed.

Lemma register_all_cons (reg : slab rentry) seq log (e : eff) rest reg' seq' log' reqs : wf reg ->
  register_all reg seq log (e :: rest) = Ok (reg', seq', log', reqs) ->
  exists reg1 reqs1,
    inserted reg (next reg) (mkR (e_kind e) (e_h e) (e_op e) seq) reg1 /\
    register_all reg1 (S seq) (log ++ [Issue seq (next reg)]) rest = Ok (reg', seq', log', reqs1) /\
    reqs = (next reg, e_op e) :: reqs1.
Proof.
  intros Hwf Hr. simpl in Hr.
  destruct (register_spec reg seq e Hwf) as [Hp | (reg1 & E1 & _ & Hins)]; [rewrite Hp in Hr; discriminate|].
  rewrite E1 in Hr.
  destruct (register_all reg1 (S seq) (log ++ [Issue seq (next reg)]) rest)
    as [[[[reg2 seq2] log2] reqs2]| | |] eqn:E2; try discriminate.
  inversion Hr; subst. exists reg1, reqs2. auto.
Qed.

Lemma register_all_entries : forall (effs : list eff) (reg : slab rentry) seq log reg' seq' log' reqs,
  wf reg -> register_all reg seq log effs = Ok (reg', seq', log', reqs) ->
  wf reg' /\ (forall id e, slab_get reg id = Some e -> slab_get reg' id = Some e) /\
  (forall id e, slab_get reg' id = Some e -> slab_get reg id = Some e \/ seq <= r_seq e).
Proof.
  induction effs as [|e0 rest IH]; intros reg seq log reg' seq' log' reqs Hwf Hr.
  - inversion Hr; subst. auto.
  - destruct (register_all_cons _ _ _ _ _ _ _ _ _ Hwf Hr) as (reg1 & reqs1 & Hins & E2 & _).
    pose proof Hins as (_ & _ & _ & Hwf1). destruct (IH _ _ _ _ _ _ _ Hwf1 E2) as (Hwf' & Hold & Hnew).
    split; [exact Hwf'|]. split.
    + intros id e Hg. apply Hold, (inserted_get _ _ _ _ _ _ Hins). auto.
    + intros id e Hg. destruct (Hnew id e Hg) as [Hg1|Hle]; [|right; lia].
      apply (inserted_get _ _ _ _ _ _ Hins) in Hg1 as [[_ ->]|Hg0]; [right; simpl; lia|left; exact Hg0].
Qed.

Lemma register_all_sim : forall (effs : list eff) reg seq log held reg' seq' log' reqs,
  RegInv reg held -> seq = length held ->
  register_all reg seq log effs = Ok (reg', seq', log', reqs) ->
  RegInv reg' (held ++ hold effs) /\ seq' = length (held ++ hold effs) /\
  exists ids, reqs = combine ids (map e_op effs) /\ length ids = length effs /\
    (forall j id ef, nth_error ids j = Some id -> nth_error effs j = Some ef ->
       slab_get reg' id = Some (mkR (e_kind ef) (e_h ef) (e_op ef) (seq + j))) /\
    (forall id, In id ids -> slab_get reg id = None).
Proof.
  induction effs as [|e rest IH]; intros reg seq log held reg' seq' log' reqs HI Hseq Hr.
  - inversion Hr; subst. simpl. rewrite app_nil_r. split; [exact HI|]. split; [reflexivity|].
    exists []. split; [reflexivity|]. split; [reflexivity|]. split; [intros [|j] id ef H; discriminate|intros id []].
  - subst seq.
    destruct (register_all_cons _ _ _ _ _ _ _ _ _ (proj1 HI) Hr) as (reg1 & reqs1 & Hins & E2 & ->).
    pose proof (RegInv_insert _ _ _ _ _ _ _ HI Hins) as HI1. destruct Hins as (Hn & Hs & Ho & Hwf1).
    assert (Hlen1 : S (length held) = length (held ++ [Some (e_kind e, e_h e)])) by (rewrite app_length; simpl; lia).
    destruct (register_all_entries _ _ _ _ _ _ _ _ Hwf1 E2) as (_ & Hmono & _).
    destruct (IH _ _ _ _ _ _ _ _ HI1 Hlen1 E2) as (HI2 & Hseq2 & ids1 & -> & Hl1 & Hreg1 & Hnew1).
    replace (held ++ hold (e :: rest)) with ((held ++ [Some (e_kind e, e_h e)]) ++ hold rest)
      by (rewrite <- app_assoc; reflexivity).
    split; [exact HI2|]. split; [exact Hseq2|]. exists (next reg :: ids1).
    split; [reflexivity|]. split; [simpl; rewrite Hl1; reflexivity|]. split.
    + intros [|j] id ef Hid Hef; simpl in Hid, Hef.
      * inversion Hid; inversion Hef; subst. rewrite Nat.add_0_r. auto.
      * replace (length held + S j) with (S (length held) + j) by lia. eauto.
    + intros id [<-|Hin]; [exact Hn|]. specialize (Hnew1 id Hin).
      destruct (Nat.eq_dec id (next reg)) as [->|Hne]; [congruence|]. rewrite <- Ho; auto.
Qed.

Lemma register_all_no_err : forall (effs : list eff) reg seq log,
  wf reg -> (exists x, register_all reg seq log effs = Ok x) \/ register_all reg seq log effs = Panic.
Proof.
  induction effs as [|e rest IH]; intros reg seq log Hwf; simpl; eauto.
  destruct (register_spec reg seq e Hwf) as [Hp | (reg1 & E1 & _ & _ & _ & _ & Hwf1)].
  - rewrite Hp. auto.
  - rewrite E1. destruct (IH reg1 (S seq) (log ++ [Issue seq (next reg)]) Hwf1) as [[[[[r s] l] q] E]|E]; rewrite E; eauto.
Qed.

Lemma finish_cases (b : bstate) c effs : wf (b_reg b) ->
  (register_all (b_reg b) (b_seq b) (b_log b) effs = Panic /\ finish b c effs = (b, Panic)) \/
  exists reg seq log reqs, register_all (b_reg b) (b_seq b) (b_log b) effs = Ok (reg, seq, log, reqs) /\
                           finish b c effs = (mkB c reg seq log, Ok (enc_reqs reqs)).
Proof.
  intros Hwf. unfold finish.
  destruct (register_all_no_err effs (b_reg b) (b_seq b) (b_log b) Hwf) as [[[[[reg seq] log] reqs] E]|E]; rewrite E;
    [right|left]; eauto 7.
Qed.

(* [err]: the error predicted for a call that fails before it reaches the core; [tr]: what the typed core
   returned otherwise.  [TUnit] (a request dropped, or nothing mirrored) always comes with an [err]. *)
Definition image (b b' : bstate) (i : binput B) (r : res bytes) (err : option Z) (tr : tout) : Prop :=
  match err with
  | Some e => r = Err e
  | None =>
      match tr with
      | TEffects effs =>
          exists ids, length ids = length effs /\
                      r = Ok (enc_reqs (combine ids (map e_op effs))) /\
                      (forall j id ef, nth_error ids j = Some id -> nth_error effs j = Some ef ->
                         slab_get (b_reg b') id = Some (mkR (e_kind ef) (e_h ef) (e_op ef) (b_seq b + j))) /\
                      (forall id, In id ids -> slab_get (b_reg b) id = None \/ exists data, i = BResp id data)
      | TErr e => r = Err e
      | TViewOut v => r = Ok (enc_view v)
      | TUnit => False
      end
  end.

Lemma finish_image (b b1 : bstate) c effs held b' r (i : binput B) :
  RegInv (b_reg b1) held -> b_seq b1 = length held -> b_seq b1 = b_seq b ->
  (forall id, slab_get (b_reg b1) id = None -> slab_get (b_reg b) id = None \/ exists data, i = BResp id data) ->
  finish b1 c effs = (b', r) -> is_panic r = false ->
  R b' (mkT c (held ++ hold effs)) /\ image b b' i r None (TEffects effs).
Proof.
  intros HI Hseq Hsb Hfresh Hf Hnp.
  destruct (finish_cases b1 c effs (proj1 HI)) as [[_ E]|(reg & seq & log & reqs & E & E')];
    [rewrite E in Hf; inversion Hf; subst; discriminate|].
  rewrite E' in Hf. inversion Hf; subst b' r; clear Hf.
  destruct (register_all_sim _ _ _ _ _ _ _ _ _ HI Hseq E) as (HI' & Hseq' & ids & -> & Hlen & Hreg & Hnew).
  split; [split; [reflexivity|split; simpl; auto]|].
  simpl. exists ids. split; [exact Hlen|]. split; [reflexivity|]. split.
  - intros j id ef Hj Hef. rewrite <- Hsb. eauto.
  - intros id Hin. apply Hfresh, Hnew, Hin.
Qed.

Lemma forget_spec (b : bstate) c id e s r :
  wf (b_reg b) -> slab_get (b_reg b) id = Some e ->
  exists reg', forget cstate op handle b c id s r = (mkB c reg' (b_seq b) (b_log b ++ [Forget s id]), r) /\
               removed (b_reg b) id reg'.
Proof.
  intros Hwf Hg. destruct (remove_spec _ id e Hwf Hg) as (reg' & E & Hrem).
  exists reg'. unfold forget. rewrite E. auto.
Qed.

(* a one-shot's entry is overwritten with Never before it is removed *)
Lemma forget_set_never (b : bstate) c id e r :
  wf (b_reg b) -> slab_get (b_reg b) id = Some e ->
  exists reg', forget cstate op handle (set_never cstate op handle b id e) c id (r_seq e) r =
                 (mkB c reg' (b_seq b) (b_log b ++ [Forget (r_seq e) id]), r) /\
               removed (b_reg b) id reg'.
Proof.
  intros Hwf Hg. destruct (set_spec (b_reg b) id e (mkR KNever (r_h e) (r_op e) (r_seq e)) Hwf Hg) as (Hs & _ & Hwf1).
  destruct (forget_spec (set_never cstate op handle b id e) c id _ (r_seq e) r Hwf1 Hs) as (reg' & E & Hrem).
  exists reg'. split; [exact E|exact (removed_after_set _ _ _ _ _ Hwf Hg Hrem)].
Qed.

Definition answer (b : bstate) (e : rentry) (data : bytes) : cstate * res unit :=
  match r_kind e, dec_out (r_op e) data with
  | KNever, _ => (b_core b, Err E_Never)
  | KOnce, None => (core_drop (b_core b) (r_h e), Err E_DeserializeOutput)
  | KOnce, Some (v, _) => (fst (core_call (b_core b) (r_h e) v), Ok tt)
  | KMany, None => (b_core b, Err E_DeserializeOutput)
  | KMany, Some (v, _) =>
      (fst (core_call (b_core b) (r_h e) v), if snd (core_call (b_core b) (r_h e) v) then Ok tt else Err E_FinishedMany)
  end.

Lemma answer_no_panic b e data : is_panic (snd (answer b e data)) = false.
Proof.
  unfold answer. destruct (r_kind e), (dec_out (r_op e) data) as [[v rest]|]; try reflexivity.
  simpl. destruct (snd _); reflexivity.
Qed.

Lemma resume_spec (b : bstate) id data : wf (b_reg b) ->
  match slab_get (b_reg b) id with
  | None => resume b id data = (b, Err E_Never)
  | Some e =>
      match r_kind e with
      | KMany => resume b id data = (mkB (fst (answer b e data)) (b_reg b) (b_seq b) (b_log b), snd (answer b e data))
      | _ => exists reg',
               resume b id data = (mkB (fst (answer b e data)) reg' (b_seq b) (b_log b ++ [Forget (r_seq e) id]),
                                   snd (answer b e data)) /\
               removed (b_reg b) id reg'
      end
  end.
Proof.
  intros Hwf. unfold resume, answer. destruct (slab_get (b_reg b) id) as [e|] eqn:Hg; [|reflexivity].
  destruct (r_kind e).
  - apply (forget_spec b _ id e); assumption.
  - destruct (dec_out (r_op e) data) as [[v rest]|]; apply forget_set_never; assumption.
  - destruct (dec_out (r_op e) data) as [[v rest]|]; simpl.
    + destruct (core_call (b_core b) (r_h e) v) as [c ok]. reflexivity.
    + destruct b; reflexivity.
Qed.

(* [RegInv_forget] mirrors the removal of [resume_spec] in [held]; [finish_image] then wants ids fresh after the
   removal: free before the call, or the id just released. *)
Theorem step_image (b : bstate) (t : tstate) i b' r :
  R b t -> bridge_step b i = (b', r) -> is_panic r = false ->
  R b' (fst (typed_opt_step t (fst (translate b i)))) /\
  image b b' i r (snd (translate b i)) (snd (typed_opt_step t (fst (translate b i)))).
Proof.
  intros (Hc & Hseq & HI) Hstep Hnp.
  destruct t as [tc held]. simpl in Hc, Hseq, HI.
  destruct i as [data | id data | ]; simpl in Hstep |- *.
  - destruct (dec_event data) as [[ev rest]|]; simpl.
    + rewrite Hc in Hstep. destruct (core_event tc ev) as [c effs]. simpl.
      eapply (finish_image b b); eauto.
    + inversion Hstep; subst b' r. simpl. split; [exact (conj Hc (conj Hseq HI))|reflexivity].
  - pose proof (resume_spec b id data (proj1 HI)) as Hres. unfold answer in Hres.
    destruct (slab_get (b_reg b) id) as [e|] eqn:Hg; simpl.
    2:{ rewrite Hres in Hstep. inversion Hstep; subst b' r. simpl. split; [exact (conj Hc (conj Hseq HI))|reflexivity]. }
    pose proof (proj1 (proj2 HI) _ _ Hg) as Hheld. rewrite Hc in Hres.
    assert (Hrem : forall reg' x, removed (b_reg b) id reg' ->
              b_seq b = length (upd held (r_seq e) x) /\ RegInv reg' (upd held (r_seq e) x)).
    { intros reg' x Hr. split; [rewrite upd_length; exact Hseq|eapply RegInv_forget; eauto]. }
    destruct (r_kind e) eqn:Hk.
    + destruct Hres as (reg' & E & Hr). rewrite E in Hstep. inversion Hstep; subst b' r.
      simpl. rewrite Hheld. simpl. split; [|reflexivity]. split; [reflexivity|apply Hrem, Hr].
    + destruct (dec_out (r_op e) data) as [[v rest]|]; simpl;
        destruct Hres as (reg' & E & Hr); rewrite E in Hstep; simpl in Hstep; rewrite Hheld.
      * destruct (core_call tc (r_h e) v) as [c1 ok]. simpl in Hstep.
        destruct (core_process c1) as [c2 effs]. simpl.
        destruct (Hrem reg' (Some (KNever, r_h e)) Hr) as [Hseq1 HI1].
        eapply (finish_image b (mkB c1 reg' (b_seq b) (b_log b ++ [Forget (r_seq e) id]))); eauto.
        simpl. intros id' Hn'. destruct (Nat.eq_dec id' id) as [->|Hne]; [right; eauto|left].
        destruct Hr as (_ & Ho & _). rewrite <- Ho; auto.
      * inversion Hstep; subst b' r. simpl. split; [|reflexivity]. split; [reflexivity|apply Hrem, Hr].
    + rewrite Hres in Hstep. destruct (dec_out (r_op e) data) as [[v rest]|]; simpl in Hstep |- *.
      * rewrite Hheld. destruct (core_call tc (r_h e) v) as [c1 ok]. destruct ok; simpl in Hstep |- *.
        -- destruct (core_process c1) as [c2 effs]. simpl.
           eapply (finish_image b (mkB c1 (b_reg b) (b_seq b) (b_log b))); eauto.
        -- inversion Hstep; subst b' r. simpl. split; [|reflexivity].
           split; [reflexivity|]. split; [exact Hseq|exact HI].
      * inversion Hstep; subst b' r. simpl. split; [|reflexivity]. split; [reflexivity|]. split; [exact Hseq|exact HI].
  - inversion Hstep; subst b' r. simpl. rewrite Hc. split; [exact (conj Hc (conj Hseq HI))|reflexivity].
Qed.

Lemma bridge_step_inv (P : bstate -> Prop) (b : bstate) i b' r :
  P b ->
  (forall id data b1 r1, i = BResp id data -> resume b id data = (b1, r1) -> P b1) ->
  (forall b1 c effs, P b1 -> P (fst (finish b1 c effs))) ->
  bridge_step b i = (b', r) -> P b'.
Proof.
  intros HP Hres Hfin Hs. destruct i as [data|id data|]; simpl in Hs.
  - destruct (dec_event data) as [[ev rest]|]; [|inversion Hs; subst; exact HP].
    destruct (core_event (b_core b) ev) as [c effs]. replace b' with (fst (finish b c effs)) by (rewrite Hs; reflexivity).
    apply Hfin, HP.
  - destruct (resume b id data) as [b1 r1] eqn:Er. pose proof (Hres _ _ _ _ eq_refl Er) as H1.
    destruct r1; try (inversion Hs; subst; exact H1).
    destruct (core_process (b_core b1)) as [c effs]. replace b' with (fst (finish b1 c effs)) by (rewrite Hs; reflexivity).
    apply Hfin, H1.
  - inversion Hs; subst. exact HP.
Qed.

Lemma bridge_run_invariant (ok : binput B -> Prop) (P : bstate -> Prop) :
  (forall b i, ok i -> P b -> P (fst (bridge_step b i))) ->
  forall is b, (forall i, In i is -> ok i) -> P b -> P (snd (bridge_run b is)).
Proof.
  intros Hstep. induction is as [|i rest IH]; intros b Hok HP; simpl; [exact HP|].
  pose proof (Hstep b i (Hok i (or_introl eq_refl)) HP) as H1. destruct (bridge_step b i) as [b' r].
  specialize (IH b' (fun i0 Hi0 => Hok i0 (or_intror Hi0)) H1). destruct (bridge_run b' rest). exact IH.
Qed.

End BridgeProofs.
