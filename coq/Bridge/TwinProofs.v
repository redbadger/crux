(* Laws of the symbolic codec used for case evaluation, and (below) that the model's own observations
   satisfy the trace predicate C09_ok. *)
From Coq Require Import List Arith Bool ZArith NArith Lia.
From Crux Require Import Base.Res Bridge.Slab Bridge.SlabProofs Bridge.Bridge Bridge.BridgeProofs
                         Bridge.RegistryProofs Bridge.ImageProofs Bridge.Twin.
Import ListNotations.

Lemma t_req_items_law : forall l rest, t_dec_req_items (length l) (t_enc_req_items l ++ rest) = Some (l, rest).
Proof.
  induction l as [|[id [va pa]] t IH]; intros rest; simpl; [reflexivity|].
  rewrite IH, Nat2N.id. reflexivity.
Qed.

Lemma t_reqs_law : forall l rest, t_dec_reqs (t_enc_reqs l ++ rest) = Some (l, rest).
Proof. intros l rest. unfold t_dec_reqs, t_enc_reqs. simpl. rewrite Nat2N.id. apply t_req_items_law. Qed.

Lemma t_view_law : forall v rest, t_dec_view (t_enc_view v ++ rest) = Some (v, rest).
Proof.
  intros v rest. unfold t_dec_view, t_enc_view. simpl. rewrite Nat2N.id.
  assert (H : (length v <= length (v ++ rest))%nat) by (rewrite app_length; lia).
  apply Nat.leb_le in H. rewrite H.
  rewrite firstn_app, Nat.sub_diag, firstn_all. simpl. rewrite app_nil_r.
  rewrite skipn_app, Nat.sub_diag, skipn_all. reflexivity.
Qed.

Lemma list_eqb_refl {A} (eqb : A -> A -> bool) (l : list A) : (forall x, eqb x x = true) -> list_eqb eqb l l = true.
Proof. intros H. induction l as [|x t IH]; simpl; auto. rewrite H, IH. reflexivity. Qed.

Lemma aop_eqb_refl o : aop_eqb o o = true.
Proof. unfold aop_eqb. rewrite !N.eqb_refl. reflexivity. Qed.

Lemma rkind_eqb_refl k : rkind_eqb k k = true.
Proof. destruct k; reflexivity. Qed.

Lemma list_eqb_map2 {A X Y} (eqb : A -> A -> bool) (f : X -> A) (g : Y -> A) : forall (xs : list X) (ys : list Y),
  length xs = length ys ->
  (forall j x y, nth_error xs j = Some x -> nth_error ys j = Some y -> eqb (f x) (g y) = true) ->
  list_eqb eqb (map f xs) (map g ys) = true.
Proof.
  induction xs as [|x xs IH]; intros [|y ys] Hlen H; simpl in *; try discriminate; auto.
  rewrite (H 0%nat x y eq_refl eq_refl). simpl. apply IH; [lia|].
  intros j x' y' Hx Hy. apply (H (S j)); auto.
Qed.

Lemma mem_nat_in x l : mem_nat x l = true <-> In x l.
Proof. apply existsb_eqb_In, Nat.eqb_eq. Qed.

Lemma nodup_nat_of_NoDup l : NoDup l -> nodup_nat l = true.
Proof.
  induction 1 as [|x l Hn Hd IH]; simpl; auto.
  rewrite IH, andb_true_r. apply negb_true_iff. destruct (mem_nat x l) eqn:E; auto.
  apply mem_nat_in in E. contradiction.
Qed.

Lemma snap_kind_get (b : m_bstate) id e :
  slab_get (b_reg b) id = Some e -> snap_kind (snap_of b) id = Some (r_kind e).
Proof.
  intros Hg. unfold snap_kind, snap_of. rewrite (find_key_NoDup _ id (r_kind e)); [reflexivity| |].
  - rewrite map_map. apply slab_iter_keys_nodup.
  - apply in_map_iff. exists (id, e). split; [reflexivity|]. apply slab_iter_in. exact Hg.
Qed.

Lemma snap_of_in (b : m_bstate) id : In id (map fst (snap_of b)) -> exists e, slab_get (b_reg b) id = Some e.
Proof.
  unfold snap_of. rewrite map_map. simpl. intros H. apply in_map_iff in H as ([k v] & Hk & Hin).
  simpl in Hk. subst k. apply slab_iter_in in Hin. eauto.
Qed.

Section ModelOk.
Arguments t_dec_reqs : simpl never.
Arguments t_enc_reqs : simpl never.
Arguments t_dec_view : simpl never.
Arguments t_enc_view : simpl never.
Variable tb : rtables.
Notation rstep_image := (step_image rcs N aop N aview nat N (rc_event tb) (rc_process tb) (rc_call tb) rc_drop (rc_view tb)
                                   t_dec_event t_dec_out t_enc_reqs t_enc_view).
Notation rtwin := (twin_run rcs N aop N aview nat N (rc_event tb) (rc_process tb) (rc_call tb) rc_drop (rc_view tb)
                            t_dec_event t_dec_out t_enc_reqs t_enc_view).
Notation rimage := (image rcs aop aview nat N t_enc_reqs t_enc_view).

Lemma call_ok_of_image (b b' : m_bstate) (i : oin) r err tr :
  rimage b b' (bin_of i) r err tr ->
  C09_call_ok (snap_of b) (model_obs tb i (mkCall _ _ _ _ _ (bin_of i) r err tr b b')) = true.
Proof.
  intros Him.
  pose proof (call_image_decoded _ _ _ _ _ _ _ _ _ t_reqs_law t_view_law (mkCall _ _ _ _ _ (bin_of i) r err tr b b') Him) as Hd.
  unfold decoded_image in Hd. simpl in Hd.
  unfold C09_call_ok, model_obs, image_ok, ids_ok, view_ok. simpl.
  rewrite (list_eqb_refl N.eqb _ N.eqb_refl), andb_true_r.
  destruct err as [e|]; [subst r; reflexivity|].
  destruct tr as [effs|e|v|]; simpl.
  - destruct Hd as (bs & ids & -> & Hdec & Hlen & Hnd & Hreg & Hfresh). simpl. rewrite Hdec.
    assert (Hl2 : length ids = length (map (e_op (op:=aop) (handle:=nat)) effs)) by (rewrite map_length; exact Hlen).
    destruct (map_combine _ _ Hl2) as [-> ->]. rewrite map_map. simpl.
    rewrite (list_eqb_refl aop_eqb _ aop_eqb_refl), (nodup_nat_of_NoDup _ Hnd). simpl.
    apply andb_true_intro. split.
    + apply forallb_forall. intros id Hin.
      destruct (Hfresh id Hin) as [Hnone|(data & Hd)].
      * apply orb_true_intro. left. apply negb_true_iff.
        destruct (mem_nat id (map fst (snap_of b))) eqn:E; auto.
        apply mem_nat_in in E. apply snap_of_in in E as (e0 & He0). congruence.
      * apply orb_true_intro. right. destruct i as [[|] ev|rid [v|]|]; simpl in Hd; try discriminate;
          inversion Hd; subst; apply Nat.eqb_refl.
    + rewrite map_map. apply list_eqb_map2; [exact Hlen|].
      intros j id ef Hid Hef. rewrite (snap_kind_get b' id _ (Hreg _ _ _ Hid Hef)). simpl. apply rkind_eqb_refl.
  - subst r. simpl. rewrite Z.eqb_refl. reflexivity.
  - destruct Hd as (bs & -> & Hdec). simpl. rewrite Hdec, (list_eqb_refl N.eqb _ N.eqb_refl). reflexivity.
  - contradiction.
Qed.

Lemma model_ok_from : forall (ins : list oin) (b : m_bstate) (t : m_tstate),
  R rcs aop nat b t ->
  (forall c, In c (rtwin b t (map bin_of ins)) -> is_panic (c_out _ _ _ _ _ c) = false) ->
  C09_ok_from (snap_of b) (map (fun p => model_obs tb (fst p) (snd p)) (combine ins (rtwin b t (map bin_of ins)))) = true.
Proof.
  induction ins as [|i rest IH]; intros b t HR Hnp; [reflexivity|].
  change (map bin_of (i :: rest)) with (bin_of i :: map bin_of rest) in *. rewrite twin_run_cons in *.
  pose proof (Hnp _ (or_introl eq_refl)) as Hr.
  destruct (rstep_image b t (bin_of i) _ _ HR (surjective_pairing _) Hr) as [HR' Him].
  simpl. rewrite (call_ok_of_image _ _ i _ _ _ Him). simpl.
  apply IH; [exact HR'|]. intros c Hc. apply Hnp. right. exact Hc.
Qed.

End ModelOk.
